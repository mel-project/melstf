(* Byte strings and big-endian numbers (be_bytes / of_be round trips, ranges), and saturating arithmetic against a
   bound kept as a variable. *)
From MelVerif Require Import Base.Arith.
Open Scope N_scope.

Arguments N.add : simpl never.
Arguments N.mul : simpl never.
Arguments N.div : simpl never.
Arguments N.modulo : simpl never.
Arguments N.pow : simpl never.

Lemma bytes_okb_ok bs : bytes_okb bs = true <-> bytes_ok bs.
Proof.
  unfold bytes_okb, bytes_ok. rewrite forallb_forall, Forall_forall.
  split; intros H x Hx; specialize (H x Hx); [apply N.ltb_lt in H|apply N.ltb_lt]; exact H.
Qed.

Lemma bytes_ok_app a b : bytes_ok (a ++ b) <-> bytes_ok a /\ bytes_ok b.
Proof. unfold bytes_ok. apply Forall_app. Qed.

Lemma bytes_ok_cons a b : bytes_ok (a :: b) <-> a < 256 /\ bytes_ok b.
Proof. unfold bytes_ok. split; [intros H; inversion H; auto|intros [? ?]; constructor; auto]. Qed.

Lemma bytes_ok_firstn n bs : bytes_ok bs -> bytes_ok (firstn n bs).
Proof. intros H. rewrite <- (firstn_skipn n bs) in H. apply bytes_ok_app in H. tauto. Qed.

Lemma bytes_ok_skipn n bs : bytes_ok bs -> bytes_ok (skipn n bs).
Proof. intros H. rewrite <- (firstn_skipn n bs) in H. apply bytes_ok_app in H. tauto. Qed.

Lemma be_bytes_length n x : length (be_bytes n x) = n.
Proof. revert x. induction n as [|n IH]; intros x; cbn [be_bytes]; [reflexivity|].
  rewrite app_length, IH. cbn. lia. Qed.

Lemma be_bytes_ok n x : bytes_ok (be_bytes n x).
Proof. revert x. induction n as [|n IH]; intros x; cbn [be_bytes]; [constructor|].
  apply bytes_ok_app. split; [apply IH|]. constructor; [|constructor].
  apply N.mod_lt. discriminate. Qed.

Lemma of_be_snoc a x : of_be (a ++ [x]) = of_be a * 256 + x.
Proof. unfold of_be. rewrite fold_left_app. reflexivity. Qed.

Lemma of_be_be_bytes n x : of_be (be_bytes n x) = x mod 256 ^ N.of_nat n.
Proof.
  revert x. induction n as [|n IH]; intros x; cbn [be_bytes].
  - cbn. rewrite N.mod_1_r. reflexivity.
  - rewrite of_be_snoc, IH, Nat2N.inj_succ, N.pow_succ_r'.
    assert (H256: 256 <> 0) by discriminate.
    assert (Hp: 256 ^ N.of_nat n <> 0) by (apply N.pow_nonzero; discriminate).
    rewrite N.mod_mul_r by assumption. lia.
Qed.

Lemma be_bytes_of_be bs : bytes_ok bs -> be_bytes (length bs) (of_be bs) = bs.
Proof.
  induction bs as [|b bs IH] using rev_ind; intros H.
  - reflexivity.
  - apply bytes_ok_app in H as [H1 H2]. apply bytes_ok_cons in H2 as [H2 _].
    rewrite last_length. cbn [be_bytes]. rewrite of_be_snoc.
    rewrite <- (N.div_unique (of_be bs * 256 + b) 256 (of_be bs) b H2) by lia.
    rewrite <- (N.mod_unique (of_be bs * 256 + b) 256 (of_be bs) b H2) by lia.
    rewrite IH by exact H1. reflexivity.
Qed.

Lemma of_be_lt bs : bytes_ok bs -> of_be bs < 256 ^ N.of_nat (length bs).
Proof.
  (* written back and read again the value is unchanged, so it is its own residue *)
  intros H. rewrite <- (be_bytes_of_be bs H) at 1. rewrite of_be_be_bytes.
  apply N.mod_lt, N.pow_nonzero. discriminate.
Qed.

(* The bound is a variable so that nothing computes with the 39-digit MAX128; sums need no lemma, lia sees
   through N.min. *)
Lemma min_mul_absorb M a c : N.min (N.min a M * c) M = N.min (a * c) M.
Proof.
  destruct (N.le_gt_cases a M) as [Ha|Ha]; [rewrite (N.min_l a M) by exact Ha; reflexivity|].
  destruct (N.eq_dec c 0) as [->|Hc]; [rewrite !N.mul_0_r; reflexivity|].
  rewrite (N.min_r a M) by lia.
  (* both products are at least M, since c >= 1 *)
  assert (M * 1 <= M * c) by (apply N.mul_le_mono_l; lia).
  assert (M * c <= a * c) by (apply N.mul_le_mono_r; lia).
  lia.
Qed.

Lemma sat_add128_pos a b : 1 <= a -> 1 <= sat_add128 a b.
Proof.
  assert (1 <= MAX128) by discriminate.
  unfold sat_add128. generalize dependent MAX128. lia.
Qed.

Lemma firstn_skipn_app {A} n (l : list A) : firstn n l ++ skipn n l = l.
Proof. apply firstn_skipn. Qed.
