(* The dense Merkle tree of novasmt (dense.rs: TIP-908 transaction tree) over an abstract hash, and its
   reduction to the tree of Merkle/Smt.v: the dense root of a list of blocks is the root of the perfect binary
   tree whose leaf at index i (index bits most significant first) is block i, and verify_dense is the climb of
   Smt.v with the proof reversed; so the theorems of Smt.v hold for the dense tree as well. *)
From Coq Require Import NArith List Lia Arith.
From MelVerif Require Import Merkle.Smt.
Import ListNotations.

Section Dense.
Variable H : Type.
Variable zero : H.
Variable hash_data : list N -> H.
Variable hash_node : H -> H -> H.

(* one level up: hash adjacent pairs (the `.tuples()` loop of DenseMerkleTree::new) *)
Fixpoint pairs_up (l : list H) : list H :=
  match l with
  | a :: b :: r => hash_node a b :: pairs_up r
  | _ => []
  end.

Fixpoint dense_top (k : nat) (l : list H) : H :=
  match k with
  | O => hd zero l
  | S k' => dense_top k' (pairs_up l)
  end.

Definition dense_leaves (k : nat) (blocks : list (list N)) : list H :=
  map hash_data blocks ++ repeat zero (2 ^ k - length blocks).
Definition dense_root (k : nat) (blocks : list (list N)) : H := dense_top k (dense_leaves k blocks).

(* verify_dense: from the leaf upwards, index bits least significant first *)
Fixpoint dense_climb (proof : list H) (idx : nat) (ptr : H) : H :=
  match proof with
  | [] => ptr
  | e :: r => dense_climb r (Nat.div2 idx) (if Nat.odd idx then hash_node e ptr else hash_node ptr e)
  end.

Lemma pairs_up_app : forall a b, Nat.even (length a) = true -> pairs_up (a ++ b) = pairs_up a ++ pairs_up b.
Proof.
  fix IH 1. intros [|x [|y a]] b He; cbn in He |- *; try discriminate; [reflexivity|].
  f_equal. apply IH. exact He.
Qed.

Lemma pairs_up_length : forall l, length (pairs_up l) = Nat.div2 (length l).
Proof. fix IH 1. intros [|x [|y l]]; cbn; [reflexivity|reflexivity|]. f_equal. apply IH. Qed.

Lemma pow2_even k : Nat.even (2 ^ S k) = true.
Proof. rewrite Nat.pow_succ_r'. rewrite Nat.even_mul. reflexivity. Qed.
Lemma pow2_div2 k : Nat.div2 (2 ^ S k) = 2 ^ k.
Proof. rewrite Nat.pow_succ_r', Nat.div2_double. reflexivity. Qed.

(* the same tree, top down *)
Lemma dense_top_split : forall k a b, length a = 2 ^ k -> length b = 2 ^ k ->
  dense_top (S k) (a ++ b) = hash_node (dense_top k a) (dense_top k b).
Proof.
  induction k as [|k IH]; intros a b Ha Hb.
  - destruct a as [|x [|? ?]]; try discriminate. destruct b as [|y [|? ?]]; try discriminate. reflexivity.
  - change (dense_top (S (S k)) (a ++ b)) with (dense_top (S k) (pairs_up (a ++ b))).
    rewrite pairs_up_app by (rewrite Ha; apply pow2_even).
    rewrite IH by (rewrite pairs_up_length, ?Ha, ?Hb; apply pow2_div2). reflexivity.
Qed.

Fixpoint path_index (p : list bool) : nat :=
  match p with
  | [] => 0
  | b :: r => (if b then 2 ^ length r else 0) + path_index r
  end.

(* the leaves as a contents function of Smt.v *)
Definition leaf_at (leaves : list (list N)) (p : list bool) : list N := nth (path_index p) leaves [].

Hypothesis hash_data_nil : hash_data [] = zero.

Lemma firstn_skipn_halves {A} (l : list A) k : length l = 2 ^ S k ->
  length (firstn (2 ^ k) l) = 2 ^ k /\ length (skipn (2 ^ k) l) = 2 ^ k.
Proof.
  intros Hl. rewrite firstn_length, skipn_length, Hl, Nat.pow_succ_r'. lia.
Qed.

Lemma path_index_lt : forall p, path_index p < 2 ^ length p.
Proof.
  induction p as [|b p IH]; cbn [path_index length]; [cbn; lia|]. rewrite Nat.pow_succ_r'. destruct b; lia.
Qed.

Theorem dense_top_is_root : forall k (blocks : list (list N)), length blocks = 2 ^ k ->
  dense_top k (map hash_data blocks) = root H hash_data hash_node k (leaf_at blocks).
Proof.
  induction k as [|k IH]; intros blocks Hl.
  - destruct blocks as [|x [|? ?]]; try discriminate. reflexivity.
  - destruct (firstn_skipn_halves blocks k Hl) as [H1 H2].
    rewrite <- (firstn_skipn (2 ^ k) blocks), map_app.
    rewrite dense_top_split by (rewrite map_length; assumption).
    rewrite (IH _ H1), (IH _ H2). cbn [root].
    f_equal; apply root_ext_len; intros p Hp; unfold sub, leaf_at; cbn [path_index plus].
    + rewrite app_nth1; [reflexivity|]. rewrite H1, <- Hp. apply path_index_lt.
    + rewrite Hp. symmetry. rewrite <- H1 at 1. apply app_nth2_plus.
Qed.

Lemma dense_leaves_map k blocks :
  dense_leaves k blocks = map hash_data (blocks ++ repeat [] (2 ^ k - length blocks)).
Proof.
  unfold dense_leaves. rewrite map_app. f_equal.
  induction (2 ^ k - length blocks) as [|n IH]; cbn [repeat map]; [reflexivity|]. rewrite hash_data_nil, IH. reflexivity.
Qed.

Theorem dense_root_is_root k blocks : length blocks <= 2 ^ k ->
  dense_root k blocks = root H hash_data hash_node k (leaf_at (blocks ++ repeat [] (2 ^ k - length blocks))).
Proof.
  intros Hl. unfold dense_root. rewrite dense_leaves_map. apply dense_top_is_root.
  rewrite app_length, repeat_length. lia.
Qed.

Fixpoint idx_bits (k i : nat) : list bool :=
  match k with
  | O => []
  | S k' => idx_bits k' (Nat.div2 i) ++ [Nat.odd i]
  end.

Lemma idx_bits_length : forall k i, length (idx_bits k i) = k.
Proof. induction k as [|k IH]; intros i; cbn [idx_bits]; [reflexivity|]. rewrite app_length, IH. cbn. lia. Qed.

Lemma climb_snoc e b : forall sibs bits leaf, length sibs = length bits ->
  climb H hash_node (sibs ++ [e]) (bits ++ [b]) leaf
  = climb H hash_node sibs bits (if b then hash_node e leaf else hash_node leaf e).
Proof.
  induction sibs as [|s sibs IHs]; intros [|b0 bits] leaf Hlen; try discriminate; cbn [app climb]; [reflexivity|].
  injection Hlen as Hlen. rewrite (IHs bits leaf Hlen). reflexivity.
Qed.

Theorem dense_climb_is_climb : forall proof idx ptr,
  dense_climb proof idx ptr = climb H hash_node (rev proof) (idx_bits (length proof) idx) ptr.
Proof.
  induction proof as [|e r IH]; intros idx ptr; cbn [dense_climb length idx_bits rev]; [reflexivity|].
  rewrite IH. symmetry. apply climb_snoc. rewrite rev_length, idx_bits_length. reflexivity.
Qed.

(* the proof DenseMerkleTree::proof returns, in terms of Smt.v: the siblings bottom first *)
Definition dense_proof (k : nat) (blocks : list (list N)) (idx : nat) : list H :=
  rev (proof H hash_data hash_node k (leaf_at (blocks ++ repeat [] (2 ^ k - length blocks))) (idx_bits k idx)).

Lemma path_index_snoc : forall p b, path_index (p ++ [b]) = 2 * path_index p + (if b then 1 else 0).
Proof.
  induction p as [|c p IHp]; intros b; cbn [app path_index length]; [destruct b; cbn; lia|].
  rewrite IHp, app_length. cbn [length]. rewrite Nat.add_1_r, Nat.pow_succ_r'. destruct c; lia.
Qed.

Lemma path_index_bits : forall k i, i < 2 ^ k -> path_index (idx_bits k i) = i.
Proof.
  induction k as [|k IH]; intros i Hi; cbn [idx_bits]; [cbn in Hi; cbn; lia|].
  rewrite path_index_snoc, IH.
  - rewrite (Nat.div2_odd i) at 3. destruct (Nat.odd i); cbn [Nat.b2n]; lia.
  - rewrite Nat.pow_succ_r' in Hi. rewrite (Nat.div2_odd i) in Hi. destruct (Nat.odd i); cbn [Nat.b2n] in Hi; lia.
Qed.

Lemma leaf_at_bits k leaves i : i < 2 ^ k -> leaf_at leaves (idx_bits k i) = nth i leaves [].
Proof. intros Hi. unfold leaf_at. rewrite path_index_bits by exact Hi. reflexivity. Qed.

Theorem dense_proof_verifies k blocks i : length blocks <= 2 ^ k -> i < 2 ^ k ->
  dense_climb (dense_proof k blocks i) i (hash_data (nth i (blocks ++ repeat [] (2 ^ k - length blocks)) []))
  = dense_root k blocks.
Proof.
  intros Hl Hi. rewrite dense_climb_is_climb. unfold dense_proof. rewrite rev_involutive, rev_length.
  rewrite proof_length by apply idx_bits_length. rewrite dense_root_is_root by exact Hl.
  rewrite <- (leaf_at_bits k _ i Hi). apply proof_complete. apply idx_bits_length.
Qed.

(* soundness, for a collision-free hash *)
Theorem dense_proof_sound k blocks i (p : list H) v :
  (forall a b a' b', hash_node a b = hash_node a' b' -> a = a' /\ b = b') ->
  (forall x y, hash_data x = hash_data y -> x = y) ->
  length blocks <= 2 ^ k -> i < 2 ^ k -> length p = k ->
  dense_climb p i (hash_data v) = dense_root k blocks ->
  v = nth i (blocks ++ repeat [] (2 ^ k - length blocks)) [].
Proof.
  intros Hn Hd Hl Hi Hp Hc. rewrite dense_climb_is_climb, dense_root_is_root in Hc by exact Hl. rewrite Hp in Hc.
  rewrite <- (leaf_at_bits k _ i Hi).
  apply (proof_sound H hash_data hash_node Hn Hd k _ _ (rev p)); [apply idx_bits_length| |exact Hc].
  rewrite rev_length. exact Hp.
Qed.
End Dense.
