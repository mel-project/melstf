(* Sparse Merkle tree of novasmt (depth-256 binary trie over the key bits, leaves hash_data(value), internal
   nodes hash_node(left, right), with hash_data [] = 0 and hash_node 0 0 = 0), over an abstract hash.
   Definitions and proofs: the root is a function of the contents, proofs of presence and absence verify,
   and - for a collision-free hash - a verifying proof determines the value. *)
From Coq Require Import List Bool NArith Lia.
Import ListNotations.

Section Smt.
Variable H : Type.
Variable zero : H.
Variable hash_data : list N -> H.
Variable hash_node : H -> H -> H.
Hypothesis hash_data_nil : hash_data [] = zero.
Hypothesis hash_node_zero : hash_node zero zero = zero.

(* contents: a total function from key paths to values, [] meaning "absent" (as novasmt stores it) *)
Definition contents := list bool -> list N.
Definition sub (m : contents) (b : bool) : contents := fun p => m (b :: p).

Fixpoint root (d : nat) (m : contents) : H :=
  match d with
  | O => hash_data (m [])
  | S d' => hash_node (root d' (sub m false)) (root d' (sub m true))
  end.

Lemma root_ext_len : forall d m1 m2, (forall p, length p = d -> m1 p = m2 p) -> root d m1 = root d m2.
Proof.
  induction d as [|d IH]; intros m1 m2 E; cbn [root].
  - rewrite (E [] eq_refl). reflexivity.
  - f_equal; apply IH; intros p Hp; unfold sub; apply E; cbn; congruence.
Qed.

(* the root depends on the contents alone; contents are a function here, inserts and deletes are not modelled *)
Theorem root_ext : forall d m1 m2, (forall p, m1 p = m2 p) -> root d m1 = root d m2.
Proof. intros d m1 m2 E. apply root_ext_len. intros p _. apply E. Qed.

Lemma root_empty : forall d m, (forall p, m p = []) -> root d m = zero.
Proof.
  induction d as [|d IH]; intros m E; cbn [root].
  - rewrite E. apply hash_data_nil.
  - rewrite !IH by (intros p; apply E). apply hash_node_zero.
Qed.

(* the proof for a key: the sibling root at every level, top first (FullProof) *)
Fixpoint proof (d : nat) (m : contents) (key : list bool) : list H :=
  match d, key with
  | S d', b :: k' => root d' (sub m (negb b)) :: proof d' (sub m b) k'
  | _, _ => []
  end.

Lemma proof_length : forall d m key, length key = d -> length (proof d m key) = d.
Proof.
  induction d as [|d IH]; intros m [|b key] Hk; try discriminate; cbn [proof length]; [reflexivity|].
  injection Hk as Hk. rewrite IH by exact Hk. reflexivity.
Qed.

(* FullProof::verify_pure: fold from the leaf upwards *)
Fixpoint climb (sibs : list H) (key : list bool) (leaf : H) : H :=
  match sibs, key with
  | s :: sibs', b :: key' =>
    let below := climb sibs' key' leaf in
    if b then hash_node s below else hash_node below s
  | _, _ => leaf
  end.

Definition verify_with (eqb : H -> H -> bool) (sibs : list H) (r : H) (key : list bool) (val : list N) : bool :=
  eqb r (climb sibs key (hash_data val)).

(* completeness: the proof of any key - present or absent - climbs back to the root *)
Theorem proof_complete : forall d m key, length key = d ->
  climb (proof d m key) key (hash_data (m key)) = root d m.
Proof.
  induction d as [|d IH]; intros m key Hl; destruct key as [|b k]; try discriminate; cbn [proof climb root].
  - reflexivity.
  - injection Hl as Hl. specialize (IH (sub m b) k Hl).
    change (hash_data (m (b :: k))) with (hash_data (sub m b k)). cbn zeta. rewrite IH.
    destruct b; reflexivity.
Qed.

(* soundness, for a collision-free hash *)
Hypothesis hash_node_inj : forall a b a' b', hash_node a b = hash_node a' b' -> a = a' /\ b = b'.
Hypothesis hash_data_inj : forall v v', hash_data v = hash_data v' -> v = v'.

Theorem proof_sound : forall d m key sibs v, length key = d -> length sibs = d ->
  climb sibs key (hash_data v) = root d m -> v = m key.
Proof.
  induction d as [|d IH]; intros m key sibs v Hk Hs E;
    destruct key as [|b k]; destruct sibs as [|s sibs]; try discriminate; cbn [climb root] in E.
  - apply hash_data_inj. exact E.
  - injection Hk as Hk. injection Hs as Hs. destruct b.
    + apply hash_node_inj in E as [_ E]. apply (IH (sub m true) k sibs v Hk Hs E).
    + apply hash_node_inj in E as [E _]. apply (IH (sub m false) k sibs v Hk Hs E).
Qed.

Theorem root_inj : forall d m1 m2, root d m1 = root d m2 -> forall key, length key = d -> m1 key = m2 key.
Proof.
  intros d m1 m2 E key Hk. apply (proof_sound d m2 key (proof d m1 key)); [exact Hk|apply proof_length, Hk|].
  rewrite <- E. apply proof_complete, Hk.
Qed.

(* executable sparse version: contents as a finite list of (key, value) bindings *)
Fixpoint bits_eqb (a b : list bool) : bool :=
  match a, b with
  | [], [] => true
  | x :: a', y :: b' => Bool.eqb x y && bits_eqb a' b'
  | _, _ => false
  end.

Fixpoint lookup (key : list bool) (l : list (list bool * list N)) : list N :=
  match l with
  | [] => []
  | (k, v) :: r => if bits_eqb k key then v else lookup key r
  end.

Definition side (b : bool) (l : list (list bool * list N)) : list (list bool * list N) :=
  flat_map (fun kv => match fst kv with
                      | x :: k' => if Bool.eqb x b then [(k', snd kv)] else []
                      | [] => [] end) l.

Fixpoint sroot (d : nat) (l : list (list bool * list N)) : H :=
  match l with
  | [] => zero
  | _ =>
    match d with
    | O => hash_data (lookup [] l)
    | S d' => hash_node (sroot d' (side false l)) (sroot d' (side true l))
    end
  end.

Definition keys_have_length (d : nat) (l : list (list bool * list N)) : Prop :=
  forall kv, In kv l -> length (fst kv) = d.

Lemma lookup_side b k : forall l, lookup (b :: k) l = lookup k (side b l).
Proof.
  induction l as [|[k0 v0] l IH]; [reflexivity|].
  cbn [lookup side flat_map fst snd]. destruct k0 as [|x k0'].
  - cbn [app bits_eqb]. exact IH.
  - cbn [bits_eqb]. destruct (Bool.eqb x b) eqn:E; cbn [andb app lookup].
    + destruct (bits_eqb k0' k); [reflexivity|exact IH].
    + exact IH.
Qed.

Lemma side_keys d b l : keys_have_length (S d) l -> keys_have_length d (side b l).
Proof.
  intros Hk kv Hin. unfold side in Hin. apply in_flat_map in Hin as ([k v] & Hin & Hm).
  cbn [fst snd] in Hm. destruct k as [|x k']; [contradiction|].
  destruct (Bool.eqb x b); [|contradiction]. destruct Hm as [<-|[]]. cbn [fst].
  specialize (Hk _ Hin). cbn in Hk. lia.
Qed.

Theorem sroot_is_root : forall d l, keys_have_length d l -> sroot d l = root d (fun k => lookup k l).
Proof.
  induction d as [|d IH]; intros l Hk.
  - destruct l as [|kv l]; cbn [sroot root]; [cbn; symmetry; apply hash_data_nil|reflexivity].
  - destruct l as [|kv l].
    + cbn [sroot]. symmetry. apply root_empty. reflexivity.
    + cbn [sroot root]. rewrite !IH by (apply side_keys; exact Hk).
      f_equal; apply root_ext; intros p; unfold sub; symmetry; apply lookup_side.
Qed.
End Smt.
