(* C18: ERG is minted only against valid sequential work, within the reward formula. *)
From MelVerif Require Import STF.Proofs.Tactics STF.Proofs.Stakes.
Open Scope N_scope.

Section Dosc.
Variable SO : stf_oracle.
Variable s : wstate.
Variable lh : header.

Definition is_tip910 (v : verdict) : bool := match v with VTip910 => true | _ => false end.

(* everything an accepted mint transaction has been checked for *)
Theorem validate_doscmint_sound relevant t speed :
  validate_doscmint SO s relevant t = Ok speed ->
  exists i0 rest c seed difficulty pid prev reward_real reward_nom outs,
    t_inputs t = i0 :: rest /\
    relevant !! input_key i0 = Some c /\
    (* age rule on mainnet *)
    (s_network s = MAINNET -> 100 <= s_height s - c_height c) /\
    (* the puzzle seed is the header at the spent coin's creation height *)
    s_history s !! c_height c = Some seed /\
    t_dosc t = DDProof difficulty pid /\ 1 <= difficulty <= 64 /\
    (* a valid proof under the legacy or the TIP-910 hash, for that header, that coin, that difficulty *)
    so_melpow SO pid (so_header_hash SO seed) (input_key i0) difficulty <> VInvalid /\
    speed = (if is_tip910 (so_melpow SO pid (so_header_hash SO seed) (input_key i0) difficulty) then 100 else 1)
            * 2 ^ difficulty / (s_height s - c_height c) /\
    (* reward computed from that speed, the previous block's DOSC speed and the inflator *)
    s_history s !! (s_height s - 1) = Some prev /\
    calculate_reward speed (h_dosc_speed prev) difficulty
      (is_tip910 (so_melpow SO pid (so_header_hash SO seed) (input_key i0) difficulty)) = Ok reward_real /\
    dosc_to_erg (s_height s) reward_real = Ok reward_nom /\
    total_outputs t = Ok outs /\
    default 0 (assoc_get Erg outs) <= reward_nom.
Proof.
  unfold validate_doscmint.
  destruct (t_inputs t) as [|i0 rest]; [discriminate|].
  destruct (relevant !! input_key i0) as [c|] eqn:Hc; [|discriminate].
  destruct ((s_height s - c_height c <? 100) && (s_network s =? MAINNET)) eqn:Age; [discriminate|].
  destruct (s_history s !! c_height c) as [seed|] eqn:Hseed; [|discriminate].
  destruct (t_dosc t) as [|d|difficulty pid]; try discriminate.
  destruct ((difficulty =? 0) || (64 <? difficulty)) eqn:Dr; [discriminate|].
  apply orb_false_iff in Dr as [D1%N.eqb_neq D2%N.ltb_ge].
  assert (Hage: s_network s = MAINNET -> 100 <= s_height s - c_height c).
  { intros Hnet. rewrite Hnet, N.eqb_refl, andb_true_r in Age. apply N.ltb_ge in Age. exact Age. }
  (* the two accepted verdicts run the same code *)
  destruct (so_melpow SO pid (so_header_hash SO seed) (input_key i0) difficulty) eqn:V; [discriminate|..].
  all: destruct (128 <=? difficulty); [discriminate|]; cbv zeta.
  all: destruct (U128 <=? _); [discriminate|].
  all: destruct (s_height s - c_height c =? 0); [discriminate|].
  all: destruct (s_height s =? 0); [discriminate|].
  all: destruct (s_history s !! (s_height s - 1)) as [prev|]; [|discriminate].
  all: intros H; inv_bind H as rr Hrr; inv_bind H as rn Hrn; inv_bind H as outs Houts.
  all: destruct (N.ltb_spec rn (default 0 (assoc_get Erg outs))); [discriminate|]; injection H as <-.
  all: exists i0, rest, c, seed, difficulty, pid, prev, rr, rn, outs; rewrite V.
  all: repeat split; auto; try lia; discriminate.
Qed.

Theorem calculate_reward_formula speed dosc_speed difficulty tip910 r :
  calculate_reward speed dosc_speed difficulty tip910 = Ok r ->
  difficulty < 128 /\ dosc_speed <> 0 /\
  r = to_u128_sat ((if tip910 then sat_mul128 (2 ^ difficulty) 100 else 2 ^ difficulty) * speed * MICRO
                   / (dosc_speed * dosc_speed * 2880)).
Proof.
  unfold calculate_reward. destruct (N.leb_spec 128 difficulty) as [|Hd]; [discriminate|].
  destruct (N.eqb_spec dosc_speed 0) as [|Hs]; [discriminate|]. intros E. injection E as <-. auto.
Qed.

Theorem dosc_to_erg_formula height real r :
  dosc_to_erg height real = Ok r -> r = microergs_per_dosc height * real / MICRO.
Proof. unfold dosc_to_erg. destruct (_ <? U128); [|discriminate]. intros H. injection H as <-. reflexivity. Qed.

Theorem accepted_batch_mints_validated txs s' :
  apply_tx_batch SO s lh txs = Ok s' ->
  exists relevant, load_relevant_coins s txs = Ok relevant /\
    forall t, In t txs -> t_kind t = KDoscMint -> exists v, validate_doscmint SO s relevant t = Ok v.
Proof.
  intros H. apply apply_tx_batch_ok in H as (relevant & n & [Hr Hall] & _).
  exists relevant. split; [exact Hr|]. intros t Ht Hk. apply (Hall t Ht), txkind_eqb_eq, Hk.
Qed.
End Dosc.
