(* Non-vacuity witness for [settlement_settles]: one block with a swap, a deposit and a withdrawal against the
   MEL/SYM pool; every hypothesis of the theorem holds on it and all three phases run. *)
From MelVerif Require Import STF.Proofs.Tactics STF.Proofs.Pool STF.Proofs.SealCoins STF.Proofs.SealSupply
  STF.Proofs.SealLift STF.Proofs.Witness STF.Proofs.Witness2.
Open Scope N_scope.

Definition w_block_state : wstate :=
  {| s_network := 2; s_height := 5; s_history := ∅;
     s_coins := s_coins w_seal_state; s_counts := s_counts w_seal_state;
     s_txs := list_to_map [(21, w_swap); (22, w_dep); (23, w_wd)];
     s_fee_pool := 1000; s_fee_mult := 100; s_tips := 0; s_dosc_speed := 1;
     s_pools := s_pools w_seal_state; s_stakes := ∅ |}.

Definition w_K : list (denom * denom) := [w_key].

Lemma w_sorted : sorted_txs w_block_state = [w_swap; w_dep; w_wd].
Proof. vm_compute. reflexivity. Qed.

(* the three settlement phases, each evaluated once; later steps start from these normal forms *)
Definition w_b2 : wstate := Eval vm_compute in ok_or w_block_state (process_swaps w_block_state).
Definition w_b3 : wstate := Eval vm_compute in ok_or w_b2 (process_deposits w_oracle w_b2).
Definition w_b4 : wstate := Eval vm_compute in ok_or w_b3 (process_withdrawals w_oracle w_b3).

Lemma w_phases :
  process_swaps w_block_state = Ok w_b2 /\ process_deposits w_oracle w_b2 = Ok w_b3 /\
  process_withdrawals w_oracle w_b3 = Ok w_b4.
Proof. repeat split; vm_compute; reflexivity. Qed.

Lemma w_settlement :
  NoDup (map poolkey_code w_K) /\
  exists s2 s3 s4,
    process_swaps w_block_state = Ok s2 /\ process_deposits w_oracle s2 = Ok s3 /\ process_withdrawals w_oracle s3 = Ok s4 /\
    legacy_net w_block_state && (s_height w_block_state <? 978392) = false /\
    (forall t k, In t (sorted_txs w_block_state) -> tx_pool t = Some k ->
       In k w_K /\ LDk w_oracle k <> fst k /\ LDk w_oracle k <> snd k) /\
    NoDup (key_pairs (sorted_txs w_block_state)) /\
    (forall t c, In t (sorted_txs w_block_state) -> s_coins w_block_state !! key0 t = Some c -> as_declared t c (out0 t)) /\
    (forall t c, In t (sorted_txs w_block_state) -> s_coins w_block_state !! key1 t = Some c -> as_declared t c (out1 t)) /\
    nsum (map (fun t => cd_value (out0 t)) (sorted_txs w_block_state)) < U128 /\
    nsum (map (fun t => cd_value (out1 t)) (sorted_txs w_block_state)) < U128 /\
    (forall k p'' m, In k w_K ->
       pool_deposit (pool_at s2 k)
         (nsum (map (fun t => cd_value (out0 t)) (txs_for_pool (List.filter (is_deposit_request s2) (sorted_txs s2)) k)))
         (nsum (map (fun t => cd_value (out1 t)) (txs_for_pool (List.filter (is_deposit_request s2) (sorted_txs s2)) k))) = Ok (p'', m) ->
       p_liqs (pool_at s2 k) + m < U128) /\
    (forall k p, In k w_K -> get_pool s3 k = Some p -> p_lefts p < U128 /\ p_rights p < U128).
Proof.
  split; [repeat constructor; intros []|].
  exists w_b2, w_b3, w_b4. destruct w_phases as (E2 & E3 & E4).
  split; [exact E2|]. split; [exact E3|]. split; [exact E4|].
  split; [vm_compute; reflexivity|]. rewrite w_sorted.
  split.
  { intros t k Ht E. assert (Some k = Some w_key) as [= ->].
    { rewrite <- E. destruct Ht as [<-|[<-|[<-|[]]]]; reflexivity. }
    split; [left; reflexivity|]. split; vm_compute; discriminate. }
  split; [cbn; repeat constructor; cbn; intuition discriminate|].
  split.
  { intros t c Ht. destruct Ht as [<-|[<-|[<-|[]]]]; vm_compute; intros [= <-]; split; reflexivity. }
  split.
  { intros t c Ht. destruct Ht as [<-|[<-|[<-|[]]]]; vm_compute; intros [= <-]; split; reflexivity. }
  split; [vm_compute; reflexivity|]. split; [vm_compute; reflexivity|].
  split.
  { intros k p'' m [<-|[]] Hm. apply N.ltb_lt.
    apply (passes_ok _ (fun r => p_liqs (pool_at w_b2 w_key) + snd r <? U128) (p'', m)) in Hm; [exact Hm|].
    vm_compute. reflexivity. }
  intros k p [<-|[]] Ep. assert (Some p = Some (pool_at w_b3 w_key)) as [= ->]; [|split; vm_compute; reflexivity].
  rewrite <- Ep. vm_compute. reflexivity.
Qed.
