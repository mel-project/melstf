(* Folds of inserts / deletes over gmaps: lookup characterisations and permutation invariance. *)
From stdpp Require Import gmap.
From Coq Require Import NArith List.
Import ListNotations.
Open Scope N_scope.

Lemma nodup_app {B} (a b : list B) : NoDup (a ++ b) <-> NoDup a /\ (forall x, In x a -> ~ In x b) /\ NoDup b.
Proof. rewrite <- !NoDup_ListNoDup, NoDup_app. setoid_rewrite elem_of_list_In. reflexivity. Qed.

Lemma in_map_fst {B C} (l : list (B * C)) k : In k (map fst l) <-> exists v, In (k, v) l.
Proof.
  rewrite in_map_iff. split; [intros ([k' v] & <- & H); eauto|intros [v H]; exists (k, v); auto].
Qed.

Lemma flat_map_ext_In {A B} (f g : A -> list B) : forall l, (forall x, In x l -> f x = g x) -> flat_map f l = flat_map g l.
Proof.
  induction l as [|x l IH]; intros H; cbn [flat_map]; [reflexivity|].
  rewrite (H x (or_introl eq_refl)), IH; [reflexivity|]. intros y Hy. apply H. right. exact Hy.
Qed.

Section Folds.
Context {A : Type}.

Definition ins_all (l : list (N * A)) (m : gmap N A) : gmap N A :=
  fold_left (fun m kv => <[fst kv := snd kv]> m) l m.
Definition del_all (ks : list N) (m : gmap N A) : gmap N A :=
  fold_left (fun m k => delete k m) ks m.

Definition consistent (l : list (N * A)) : Prop :=
  forall k v1 v2, In (k, v1) l -> In (k, v2) l -> v1 = v2.

Lemma ins_all_app l1 l2 m : ins_all (l1 ++ l2) m = ins_all l2 (ins_all l1 m).
Proof. unfold ins_all. apply fold_left_app. Qed.

Lemma ins_all_notin : forall l m k, ~ In k (map fst l) -> ins_all l m !! k = m !! k.
Proof.
  induction l as [|[k0 v0] l IH]; intros m k Hn; cbn [ins_all fold_left fst snd]; [reflexivity|].
  fold (ins_all l (<[k0 := v0]> m)). rewrite IH.
  - apply lookup_insert_ne. intros ->. apply Hn. left. reflexivity.
  - intros Hin. apply Hn. right. exact Hin.
Qed.

Lemma ins_all_key : forall l m k v, (forall v', In (k, v') l -> v' = v) -> In (k, v) l -> ins_all l m !! k = Some v.
Proof.
  induction l as [|[k0 v0] l IH]; intros m k v Hall Hin; [contradiction|].
  cbn [ins_all fold_left fst snd]. fold (ins_all l (<[k0 := v0]> m)).
  destruct (in_dec (fun a b => decide (a = b)) k (map fst l)) as [Hk|Hk].
  - apply in_map_fst in Hk as [v' Hin'].
    assert (v' = v) by (apply Hall; right; exact Hin'). subst v'.
    apply IH; [|exact Hin']. intros v2 H2. apply Hall. right. exact H2.
  - rewrite ins_all_notin by exact Hk.
    destruct Hin as [E|Hin]; [injection E as -> ->; apply lookup_insert|].
    exfalso. apply Hk. apply in_map_fst. eauto.
Qed.

Lemma ins_all_in l m k v : consistent l -> In (k, v) l -> ins_all l m !! k = Some v.
Proof. intros Hc Hin. apply ins_all_key; [|exact Hin]. intros v' Hin'. exact (Hc k v' v Hin' Hin). Qed.

Lemma ins_all_Some : forall l m k c,
  ins_all l m !! k = Some c -> In (k, c) l \/ (m !! k = Some c /\ ~ In k (map fst l)).
Proof.
  induction l as [|[k0 v0] l IH]; intros m k c H; [right; split; [exact H|intros []]|].
  cbn [ins_all fold_left fst snd] in H. fold (ins_all l (<[k0 := v0]> m)) in H.
  apply IH in H as [H|[H Hn]]; [left; right; exact H|].
  destruct (decide (k0 = k)) as [->|Hne].
  - rewrite lookup_insert in H. injection H as ->. left. left. reflexivity.
  - rewrite lookup_insert_ne in H by exact Hne. right. split; [exact H|]. intros [E|Hin]; [exact (Hne E)|exact (Hn Hin)].
Qed.

Lemma nodup_consistent : forall l, NoDup (map fst l) -> consistent l.
Proof.
  induction l as [|[k0 v0] l IH]; intros Hnd k v1 v2 H1 H2; [contradiction|].
  cbn [map fst] in Hnd. inversion Hnd as [|? ? Hni Hnd']; subst.
  destruct H1 as [E1|H1], H2 as [E2|H2]; [congruence| | |exact (IH Hnd' k v1 v2 H1 H2)].
  - injection E1 as -> ->. exfalso. apply Hni. exact (in_map fst _ _ H2).
  - injection E2 as -> ->. exfalso. apply Hni. exact (in_map fst _ _ H1).
Qed.

Lemma ins_all_union : forall l m, ins_all l m = ins_all l ∅ ∪ m.
Proof.
  intros l. induction l as [|[k v] l IH] using rev_ind; intros m.
  - cbn. rewrite (left_id_L ∅ (∪)). reflexivity.
  - rewrite !ins_all_app. cbn [ins_all fold_left fst snd]. rewrite IH. apply insert_union_l.
Qed.

(* the last binding of a key wins; with consistent bindings, any binding *)
Lemma ins_all_lookup l m k : consistent l ->
  ins_all l m !! k = match find (fun kv => bool_decide (fst kv = k)) l with
                     | Some kv => Some (snd kv)
                     | None => m !! k
                     end.
Proof.
  intros Hc. destruct (find _ l) as [[k' v]|] eqn:F.
  - apply find_some in F as [Hin E]. apply bool_decide_eq_true in E. cbn in E. subst k'.
    apply ins_all_in; assumption.
  - apply ins_all_notin. intros Hin. apply in_map_fst in Hin as [v Hin].
    pose proof (find_none _ _ F _ Hin) as Hf. cbn in Hf. apply bool_decide_eq_false in Hf. contradiction.
Qed.

Lemma consistent_perm l1 l2 : Permutation l1 l2 -> consistent l1 -> consistent l2.
Proof.
  intros P Hc k v1 v2 H1 H2. eapply Hc; eapply Permutation_in; try (apply Permutation_sym; exact P); eassumption.
Qed.

Theorem ins_all_perm l1 l2 m : Permutation l1 l2 -> consistent l1 -> ins_all l1 m = ins_all l2 m.
Proof.
  intros P Hc. apply map_eq. intros k.
  destruct (in_dec (fun a b => decide (a = b)) k (map fst l1)) as [Hk|Hk].
  - apply in_map_fst in Hk as [v Hin].
    rewrite (ins_all_in l1 m k v Hc Hin).
    rewrite (ins_all_in l2 m k v (consistent_perm _ _ P Hc) (Permutation_in _ P Hin)). reflexivity.
  - rewrite ins_all_notin by exact Hk. rewrite ins_all_notin; [reflexivity|].
    intros Hin. apply Hk. eapply Permutation_in; [apply Permutation_sym, Permutation_map; exact P|exact Hin].
Qed.

Lemma del_all_notin : forall ks m k, ~ In k ks -> del_all ks m !! k = m !! k.
Proof.
  induction ks as [|k0 ks IH]; intros m k Hn; cbn [del_all fold_left]; [reflexivity|].
  fold (del_all ks (delete k0 m)). rewrite IH by (intros H; apply Hn; right; exact H).
  apply lookup_delete_ne. intros ->. apply Hn. left. reflexivity.
Qed.

Lemma del_all_in : forall ks m k, In k ks -> del_all ks m !! k = None.
Proof.
  induction ks as [|k0 ks IH]; intros m k Hin; [contradiction|].
  cbn [del_all fold_left]. fold (del_all ks (delete k0 m)).
  destruct (in_dec (fun a b => decide (a = b)) k ks) as [H|H]; [apply IH; exact H|].
  destruct Hin as [->|Hin]; [|contradiction]. rewrite del_all_notin by exact H. apply lookup_delete.
Qed.

Lemma del_all_Some ks m k c : del_all ks m !! k = Some c -> m !! k = Some c.
Proof.
  intros H. destruct (in_dec (fun a b => decide (a = b)) k ks) as [Hk|Hk].
  - rewrite del_all_in in H by exact Hk. discriminate.
  - rewrite del_all_notin in H by exact Hk. exact H.
Qed.

Lemma del_all_app a b m : del_all (a ++ b) m = del_all b (del_all a m).
Proof. unfold del_all. apply fold_left_app. Qed.

Lemma ins_del_commute l : forall ks m,
  (forall k, In k ks -> ~ In k (map fst l)) -> ins_all l (del_all ks m) = del_all ks (ins_all l m).
Proof.
  induction ks as [|k ks IH]; intros m H; cbn [del_all fold_left]; [reflexivity|].
  fold (del_all ks (delete k m)). fold (del_all ks (delete k (ins_all l m))).
  rewrite IH by (intros k' Hk'; apply H; right; exact Hk'). f_equal.
  specialize (H k (or_introl eq_refl)). clear IH. revert m.
  induction l as [|[k0 v0] l IHl]; intros m; cbn [ins_all fold_left fst snd]; [reflexivity|].
  fold (ins_all l (<[k0 := v0]> (delete k m))). fold (ins_all l (<[k0 := v0]> m)).
  assert (k0 <> k) by (intros ->; apply H; left; reflexivity).
  rewrite <- delete_insert_ne by congruence. apply IHl. intros Hin. apply H. right. exact Hin.
Qed.

Theorem del_all_perm ks1 ks2 m : Permutation ks1 ks2 -> del_all ks1 m = del_all ks2 m.
Proof.
  intros P. apply map_eq. intros k.
  destruct (in_dec (fun a b => decide (a = b)) k ks1) as [H|H].
  - rewrite !del_all_in; [reflexivity|eapply Permutation_in; eauto|exact H].
  - rewrite !del_all_notin; [reflexivity| |exact H].
    intros H2. apply H. eapply Permutation_in; [apply Permutation_sym; exact P|exact H2].
Qed.
End Folds.
