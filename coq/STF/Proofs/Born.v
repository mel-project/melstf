(* C16, first clause, from the beginning of a chain: the MEL/SYM and MEL/ERG pools - and where TIP-902 is active
   the ERG/SYM pool - are created by the first seal with 10^9 of liquidity that nobody owns, so - if at most
   10^9 - 1 of their tokens existed before (none does in a genesis state) - they are born live and backed with
   room to spare, and stay so in every later state of every history; hence sealing is total from genesis (C09). *)
From MelVerif Require Import STF.Proofs.Tactics STF.Proofs.Frame STF.Proofs.Supply STF.Proofs.Pool
  STF.Proofs.SealSteps STF.Proofs.BatchSupply STF.Proofs.SealCoins STF.Proofs.SealLift STF.Proofs.SealInv
  STF.Proofs.HashFacts STF.Proofs.Stakes STF.Proofs.History STF.Proofs.Declared STF.Proofs.PoolHistory
  STF.Proofs.BoundsHistory STF.Proofs.SealTotal.
From Coq Require Import ZifyN ZifyNat ZifyBool.
Open Scope N_scope.

(* one step of the bootstrap: [create_builtin] of SealSteps.v *)
Definition add_builtin (k : denom * denom) (s : wstate) : wstate :=
  match get_pool s k with Some _ => s | None => put_pool s k builtin_pool end.

Lemma add_builtin_keeps k k' s : is_Some (get_pool s k') -> is_Some (get_pool (add_builtin k s) k').
Proof. intros [q Eq]. change add_builtin with create_builtin. rewrite create_builtin_get, Eq. eauto. Qed.

Lemma create_builtins_idem s : create_builtins (create_builtins s) = create_builtins s.
Proof.
  assert (T: tip_902 (create_builtins s) = tip_902 s) by (destruct (create_builtins_set s) as [m ->]; reflexivity).
  assert (Id: forall k, bootstrap_creates s (poolkey_code k) = true -> create_builtin k (create_builtins s) = create_builtins s).
  { intros k Hb. unfold create_builtin. rewrite create_builtins_get, Hb. destruct (get_pool s k); reflexivity. }
  rewrite (create_builtins_eq (create_builtins s)). cbv zeta.
  rewrite (Id (poolkey_new Mel Sym)), (Id (poolkey_new Mel Erg)), T.
  - destruct (tip_902 s) eqn:T2; [|reflexivity]. apply Id. unfold bootstrap_creates. rewrite T2, N.eqb_refl. apply orb_true_r.
  - unfold bootstrap_creates. rewrite N.eqb_refl, orb_true_r. reflexivity.
  - unfold bootstrap_creates. rewrite N.eqb_refl. reflexivity.
Qed.

Section Born.
Variable K : list (denom * denom).
Hypothesis Kcodes : NoDup (map poolkey_code K).
Variable SO : stf_oracle.
Hypothesis K_builtins : In MS K /\ In ME K /\ In ES K.
Hypothesis LD_inj : forall k1 k2, In k1 K -> In k2 K -> LDk SO k1 = LDk SO k2 -> k1 = k2.

Lemma seal_create_builtins s a : seal SO (create_builtins s) a = seal SO s a.
Proof. unfold seal, preseal_melmint. rewrite create_builtins_idem. reflexivity. Qed.

Variable k : denom * denom.
Hypothesis Hb : k = MS \/ k = ME \/ k = ES.

Lemma born_in_K : In k K.
Proof. destruct K_builtins as (A & B & C). destruct Hb as [-> | [-> | ->]]; assumption. Qed.

Lemma unborn_created s : get_pool s k = None -> (k = ES -> tip_902 s = true) -> get_pool (create_builtins s) k = Some builtin_pool.
Proof.
  intros E Ht. rewrite create_builtins_get, E. unfold bootstrap_creates.
  destruct Hb as [-> | [-> | ->]]; [| |rewrite (Ht eq_refl)]; reflexivity.
Qed.

(* the last clause: for ERG/SYM, TIP-902 is active, so that the next seal creates it *)
Definition Unborn (s : wstate) : Prop :=
  get_pool s k = None /\ coin_supply (LDk SO k) (s_coins s) + psum K (LDk SO k) s + 1 <= MICRO * 1000 /\
  (k = ES -> tip_902 s = true).
Definition BornBacked (s : wstate) : Prop := Backed K SO k s \/ Unborn s.

Lemma seal_premises_create s : seal_premises K SO s -> seal_premises K SO (create_builtins s).
Proof.
  intros P. pose proof (frame_create_builtins s) as F.
  assert (T: sorted_txs (create_builtins s) = sorted_txs s) by (apply txs_same, frame_fp_txs; exact F).
  assert (N1: s_network (create_builtins s) = s_network s /\ s_height (create_builtins s) = s_height s)
    by (unfold frame_fp, frame in F; split; congruence).
  destruct N1 as [En Eh].
  unfold seal_premises, legacy_net. rewrite create_builtins_idem, T, coins_create_builtins, En, Eh. exact P.
Qed.

Theorem seal_births_backed s a s' :
  seal SO s a = Ok s' -> Unborn s -> seal_premises K SO s -> Backed K SO k s'.
Proof.
  intros H (En & Hs & Ht) P. rewrite <- seal_create_builtins in H.
  apply (seal_backed K Kcodes SO K_builtins LD_inj k born_in_K (create_builtins s) a s' H (seal_premises_create s P)).
  exists builtin_pool. split; [exact (unborn_created s En Ht)|]. split; [apply builtin_pool_live|].
  rewrite coins_create_builtins. unfold LDk. rewrite (psum_custom_create K Kcodes K_builtins). exact Hs.
Qed.

Lemma batch_keeps_unborn s lh txs s' :
  apply_tx_batch SO s lh txs = Ok s' -> HashOK SO s txs -> batch_issuance (LDk SO k) txs = 0 -> Unborn s -> Unborn s'.
Proof.
  intros H HK Hiss (En & Hs & Ht). destruct (batch_keeps_token K SO s lh txs s' k H HK Hiss) as [Epools Hle].
  split; [unfold get_pool; rewrite Epools; exact En|]. split; [lia|].
  intros Ek. rewrite <- (Ht Ek). destruct (apply_tx_batch_frame SO s lh txs s' H) as (E1 & E2 & _).
  unfold tip_902, tip_condition. rewrite E1, E2. reflexivity.
Qed.

Lemma block_born s a hdr s' :
  seal SO s a = Ok s' -> seal_premises K SO s -> BornBacked s -> Backed K SO k (next_unsealed s' hdr).
Proof.
  intros E P [B|U]; apply next_unsealed_backed.
  - exact (seal_backed K Kcodes SO K_builtins LD_inj k born_in_K s a s' E P B).
  - exact (seal_births_backed s a s' E U P).
Qed.

Lemma hstep_born : forall s o,
  BornBacked s -> Good2 s /\ pool_bounds_step_ok K SO k s o -> BornBacked (hstep SO s o).
Proof.
  apply (hstep_cases SO BornBacked (fun s o => Good2 s /\ pool_bounds_step_ok K SO k s o)).
  - intros s lh txs s' [B|U] [_ [[HK _] Hiss]] E.
    + left. exact (batch_backed K SO k s lh txs s' E HK Hiss B).
    + right. exact (batch_keeps_unborn s lh txs s' E HK Hiss U).
  - intros s a hdr s' B [G [[_ Hbd] _]] E. left.
    exact (block_born s a hdr s' E (seal_premises_of_bounds K SO s G Hbd) B).
Qed.

Lemma born_invariant s o :
  Good2 s /\ BornBacked s -> pool_bounds_step_ok K SO k s o -> Good2 (hstep SO s o) /\ BornBacked (hstep SO s o).
Proof.
  intros [G B] Hok. split; [exact (bounds_hstep_good2 K SO s o G (proj1 Hok))|exact (hstep_born s o B (conj G Hok))].
Qed.

Theorem born_backed_forever : forall ops s,
  Good2 s -> BornBacked s -> hist_all SO (pool_bounds_step_ok K SO k) s ops -> BornBacked (fold_left (hstep SO) ops s).
Proof.
  intros ops s G B H. exact (proj2 (history_invariant SO _ _ born_invariant ops s (conj G B) H)).
Qed.

(* once a block has been sealed the pool exists: live and backed in every state from then on *)
Theorem backed_after_first_block ops1 a hdr ops2 s sealed :
  Good2 s -> BornBacked s ->
  hist_all SO (pool_bounds_step_ok K SO k) s (ops1 ++ HBlock a hdr :: ops2) ->
  seal SO (fold_left (hstep SO) ops1 s) a = Ok sealed ->
  Backed K SO k (fold_left (hstep SO) (ops1 ++ HBlock a hdr :: ops2) s).
Proof.
  intros G B H Hs. apply hist_all_app in H as [H1 [Hblk H2]]. rewrite fold_left_app. cbn [fold_left].
  destruct (history_invariant SO _ _ born_invariant ops1 s (conj G B) H1) as [G1 B1].
  pose proof (bounds_hstep_good2 K SO _ _ G1 (proj1 Hblk)) as G2.
  cbn [hstep] in G2, H2 |- *. rewrite Hs in G2, H2 |- *.
  apply (pool_backed_forever_inv K Kcodes SO K_builtins LD_inj k born_in_K ops2 _ G2); [|exact H2].
  destruct Hblk as [[_ Hbd] _]. exact (block_born _ a hdr sealed Hs (seal_premises_of_bounds K SO _ G1 Hbd) B1).
Qed.

(* the definitions, spelled out for the property files *)
Lemma unborn_def s :
  Unborn s <-> get_pool s k = None /\ coin_supply (LDk SO k) (s_coins s) + psum K (LDk SO k) s + 1 <= MICRO * 1000 /\
                (k = ES -> tip_902 s = true).
Proof. reflexivity. Qed.
Lemma born_backed_def s : BornBacked s <-> Backed K SO k s \/ Unborn s.
Proof. reflexivity. Qed.
End Born.

Lemma genesis_unborn K SO k net c fp m st :
  cd_denom (c_data c) <> LDk SO k -> (k = ES -> net <> MAINNET /\ net <> TESTNET) -> Unborn K SO k (genesis net c fp m st).
Proof.
  intros Hd Hn. split; [reflexivity|]. split; cycle 1.
  { intros Ek. destruct (Hn Ek) as [N1 N2]. unfold tip_902, tip_condition, genesis. cbn zeta. cbn [s_network set_coins].
    apply N.eqb_neq in N1, N2. rewrite N1, N2. reflexivity. }
  assert (Ep: psum K (LDk SO k) (genesis net c fp m st) = 0).
  { unfold psum. induction K as [|k0 l IH]; cbn [map nsum]; [reflexivity|]. rewrite IH.
    unfold pool_at, get_pool. cbn [genesis s_pools set_coins]. rewrite lookup_empty. rewrite side_empty. reflexivity. }
  rewrite Ep.
  assert (Ec: coin_supply (LDk SO k) (s_coins (genesis net c fp m st)) = 0).
  { unfold genesis. cbn zeta. cbn [s_coins set_coins].
    match goal with |- context [insert_coin ?b ?key c (∅, ∅)] => assert (Ei: fst (insert_coin b key c (∅, ∅)) = <[key := c]> ∅) end.
    { unfold insert_coin. destruct (tip_906 _); reflexivity. }
    rewrite Ei. rewrite coin_supply_insert_fresh by apply lookup_empty.
    destruct (denom_eqb (cd_denom (c_data c)) (LDk SO k)) eqn:E; [apply denom_eqb_eq in E; contradiction|reflexivity]. }
  rewrite Ec. unfold MICRO. lia.
Qed.

(* C09 from the beginning of a chain: with all three built-in pools born backed, sealing is total in every
   reachable state under the no-overflow bounds alone *)
Section TotalFromGenesis.
Variable K : list (denom * denom).
Hypothesis Kcodes : NoDup (map poolkey_code K).
Variable SO : stf_oracle.
Hypothesis K_builtins : In MS K /\ In ME K /\ In ES K.
Hypothesis LD_inj : forall k1 k2, In k1 K -> In k2 K -> LDk SO k1 = LDk SO k2 -> k1 = k2.

Definition builtins_step_ok (s : wstate) (o : hop) : Prop := forall k, builtin k -> pool_bounds_step_ok K SO k s o.

Theorem seal_total_from_born ops s0 :
  Good2 s0 -> (forall k, builtin k -> BornBacked K SO k s0) -> hist_all SO builtins_step_ok s0 ops ->
  let s := fold_left (hstep SO) ops s0 in
  legacy_net s && (s_height s <? 978392) = false ->
  (forall t k1, In t (sorted_txs s) -> tx_pool t = Some k1 -> In k1 K /\ LDk SO k1 <> fst k1 /\ LDk SO k1 <> snd k1) ->
  nsum (map (fun t => cd_value (out0 t)) (sorted_txs s)) < U128 ->
  nsum (map (fun t => cd_value (out1 t)) (sorted_txs s)) < U128 ->
  (forall s2, process_swaps (create_builtins s) = Ok s2 ->
     forall k1 p'' m, In k1 K ->
       pool_deposit (pool_at s2 k1)
         (nsum (map (fun t => cd_value (out0 t)) (txs_for_pool (List.filter (is_deposit_request s2) (sorted_txs s2)) k1)))
         (nsum (map (fun t => cd_value (out1 t)) (txs_for_pool (List.filter (is_deposit_request s2) (sorted_txs s2)) k1))) = Ok (p'', m) ->
       p_liqs (pool_at s2 k1) + m < U128) ->
  (s_height s - TIP_909_HEIGHT) / 1000000 < 128 ->
  (forall s1 sm, preseal_melmint SO s = Ok s1 -> get_pool s1 MS = Some sm -> s_fee_pool s + p_lefts sm + s_tips s < U128) ->
  forall a, exists s', seal SO s a = Ok s'.
Proof.
  intros G B H s Hleg Hcover Hs0 Hs1 Hsat Hh Hf.
  assert (Bs: forall k, builtin k -> BornBacked K SO k s).
  { intros k Hk. apply (born_backed_forever K Kcodes SO K_builtins LD_inj k Hk ops s0 G (B k Hk)).
    revert H. apply hist_all_mono. intros s1 o Hall. apply Hall. exact Hk. }
  assert (Hok: hist_ok SO s0 ops).
  { revert H. apply hist_all_mono. intros s1 o Hall.
    destruct (Hall MS (or_introl eq_refl)) as [Hb _]. exact (step_ok_of_bounds K SO s1 o Hb). }
  apply (seal_total_reachable K Kcodes SO K_builtins LD_inj ops s0 G Hok); try assumption.
  - (* room to spare after the bootstrap *)
    intros k p1 Hk E1. fold s in E1 |- *. destruct (Bs k Hk) as [(p & Ep & _ & Hb)|(En & Hu & Ht)].
    + rewrite create_builtins_get, Ep in E1. injection E1 as <-.
      unfold LDk in *. rewrite (psum_custom_create K Kcodes K_builtins). exact Hb.
    + rewrite (unborn_created k Hk s En Ht) in E1. injection E1 as <-.
      unfold LDk in *. rewrite (psum_custom_create K Kcodes K_builtins). cbn [builtin_pool p_liqs]. exact Hu.
  - (* the built-in pools that exist are live *)
    intros k p Hk Ep. fold s in Ep. destruct (Bs k Hk) as [(p0 & Ep0 & Lp & _)|(En & _)]; [|congruence].
    rewrite Ep in Ep0. injection Ep0 as <-. exact Lp.
Qed.

Lemma builtins_step_ok_def s o : builtins_step_ok s o <-> forall k, builtin k -> pool_bounds_step_ok K SO k s o.
Proof. reflexivity. Qed.
End TotalFromGenesis.
