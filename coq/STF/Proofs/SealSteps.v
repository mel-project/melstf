(* The steps of sealing (melmint.rs, SealedState::seal): what a successful run of each step says about its input
   and its result.  Everything here is about the model alone. *)
From MelVerif Require Import STF.Proofs.Tactics STF.Proofs.Pool.
From Coq Require Import ZifyN ZifyNat ZifyBool.
Open Scope N_scope.

Lemma add128_ok {E} tag a b (v : N) : @add128 E tag a b = Ok v -> v = a + b /\ a + b < U128.
Proof. unfold add128. destruct (N.ltb_spec (a + b) U128) as [Hlt|]; [|discriminate]. intros H. injection H as <-. auto. Qed.

Lemma get_pool_put_same s k p : get_pool (put_pool s k p) k = Some p.
Proof. apply lookup_insert. Qed.
Lemma get_pool_put_other s k1 p k : poolkey_code k1 <> poolkey_code k -> get_pool (put_pool s k1 p) k = get_pool s k.
Proof. intros H. apply lookup_insert_ne. exact H. Qed.

Lemma swap_many_liqs p l r p' lw rw : swap_many p l r = Ok (p', lw, rw) -> p_liqs p' = p_liqs p.
Proof. intros H. apply (swap_many_inv _ _ _ _ _ _ H). Qed.

Lemma swap_many_flow p l r p' lw rw :
  swap_many p l r = Ok (p', lw, rw) ->
  p_lefts p' + lw <= p_lefts p + l /\ p_rights p' + rw <= p_rights p + r /\
  (r = 0 -> lw = 0) /\ (l = 0 -> rw = 0).
Proof.
  intros H. destruct (swap_many_inv _ _ _ _ _ _ H) as (Elw & Erw & Hlw & Hrw & _ & EL & ER & _).
  assert (sat_add128 (p_lefts p) l <= p_lefts p + l) by (unfold sat_add128; lia).
  assert (sat_add128 (p_rights p) r <= p_rights p + r) by (unfold sat_add128; lia).
  split; [lia|]. split; [lia|]. split; intros ->; [rewrite Elw|rewrite Erw]; reflexivity.
Qed.

Lemma below_quotient x a th : x <= a / th -> x <= a.
Proof.
  intros H. apply (N.le_trans _ _ _ H). destruct (N.eq_dec th 0) as [->|Hth]; [destruct a; apply N.le_0_l|].
  apply N.div_le_upper_bound; [exact Hth|nia].
Qed.

Lemma throttled_le y z th : th <> 0 -> (to_u128_sat y - z) / th <= MAX128 / th.
Proof. intros H. apply N.div_le_mono; [exact H|]. eapply N.le_trans; [apply N.le_sub_l|apply to_u128_sat_max]. Qed.

(* how apply_tip_909 splits the reward between the MEL/SYM pool (f) and the ERG/SYM pool (e) *)
Lemma subsidy_split reward (c : bool) :
  let f := if c then reward - reward / 256 else reward / 2 in
  let e := if c then reward / 256 else reward - f in
  f <= reward /\ e <= reward /\ f + e <= reward.
Proof.
  assert (reward / 256 <= reward /\ reward / 2 <= reward) by (split; apply N.div_le_upper_bound; lia).
  destruct c; lia.
Qed.

Section Steps.
Variable SO : stf_oracle.

Lemma preseal_inv s s5 :
  preseal_melmint SO s = Ok s5 <-> exists s2 s3 s4,
    process_swaps (create_builtins s) = Ok s2 /\ process_deposits SO s2 = Ok s3 /\
    process_withdrawals SO s3 = Ok s4 /\ process_pegging s4 = Ok s5.
Proof.
  unfold preseal_melmint. split.
  - intros H. inv_bind H as s2 H2. inv_bind H as s3 H3. inv_bind H as s4 H4. eauto 7.
  - intros (s2 & s3 & s4 & H2 & H3 & H4 & H5). cbv zeta. rewrite H2. cbn [obind]. rewrite H3. cbn [obind].
    rewrite H4. exact H5.
Qed.

Lemma seal_inv s a s' :
  seal SO s a = Ok s' <-> exists s5 s6,
    preseal_melmint SO s = Ok s5 /\ pool_count_ok s5 = true /\
    (if tip_909 s5 then apply_tip_909 s5 else Ok s5) = Ok s6 /\
    match a with
    | None => s' = s6
    | Some act => collect_proposer_fee SO (set_mult s6 (move_fee_multiplier (tip_901 s6) (s_fee_mult s6) (a_delta act))) act = Ok s'
    end.
Proof.
  unfold seal. split.
  - intros H. inv_bind H as s5 H5. destruct (pool_count_ok s5) eqn:Hc; [|discriminate]. cbn [negb] in H.
    inv_bind H as s6 H6. exists s5, s6. repeat split; try assumption.
    destruct a; [exact H|injection H as <-; reflexivity].
  - intros (s5 & s6 & H5 & Hc & H6 & H). apply obind_ok_iff. exists s5. split; [exact H5|]. rewrite Hc. cbn [negb].
    apply obind_ok_iff. exists s6. split; [exact H6|]. destruct a; [exact H|rewrite H; reflexivity].
Qed.

Definition create_builtin (k : denom * denom) (s : wstate) : wstate :=
  match get_pool s k with Some _ => s | None => put_pool s k builtin_pool end.

Lemma create_builtins_eq s :
  create_builtins s =
  let s2 := create_builtin (poolkey_new Mel Erg) (create_builtin (poolkey_new Mel Sym) s) in
  if tip_902 s2 then create_builtin (poolkey_new Erg Sym) s2 else s2.
Proof. reflexivity. Qed.

Lemma create_builtin_get k s k' :
  get_pool (create_builtin k s) k' =
  match get_pool s k' with
  | Some p => Some p
  | None => if poolkey_code k' =? poolkey_code k then Some builtin_pool else None
  end.
Proof.
  unfold create_builtin. destruct (N.eqb_spec (poolkey_code k') (poolkey_code k)) as [E|E].
  - unfold get_pool at 2 3. rewrite E. fold (get_pool s k). destruct (get_pool s k) eqn:Ek.
    + unfold get_pool. rewrite E. exact Ek.
    + unfold get_pool. rewrite E. apply get_pool_put_same.
  - destruct (get_pool s k); [|rewrite get_pool_put_other by congruence]; destruct (get_pool s k'); reflexivity.
Qed.

Lemma create_builtin_set k s : exists m, create_builtin k s = set_pools s m.
Proof. unfold create_builtin. destruct (get_pool s k); [exists (s_pools s); destruct s; reflexivity|eexists; reflexivity]. Qed.

Lemma create_builtins_set s : exists m, create_builtins s = set_pools s m.
Proof.
  rewrite create_builtins_eq. cbv zeta.
  destruct (create_builtin_set (poolkey_new Mel Sym) s) as [m1 ->].
  destruct (create_builtin_set (poolkey_new Mel Erg) (set_pools s m1)) as [m2 ->].
  destruct (tip_902 _); [|eauto]. destruct (create_builtin_set (poolkey_new Erg Sym) (set_pools (set_pools s m1) m2)) as [m3 ->]. eauto.
Qed.

Definition bootstrap_creates (s : wstate) (c : N) : bool :=
  (c =? poolkey_code (poolkey_new Mel Sym)) || (c =? poolkey_code (poolkey_new Mel Erg))
  || (tip_902 s && (c =? poolkey_code (poolkey_new Erg Sym))).

Lemma create_builtins_get s k :
  get_pool (create_builtins s) k =
  match get_pool s k with
  | Some p => Some p
  | None => if bootstrap_creates s (poolkey_code k) then Some builtin_pool else None
  end.
Proof.
  rewrite create_builtins_eq. cbv zeta. unfold bootstrap_creates.
  assert (T: tip_902 (create_builtin (poolkey_new Mel Erg) (create_builtin (poolkey_new Mel Sym) s)) = tip_902 s).
  { destruct (create_builtin_set (poolkey_new Mel Sym) s) as [m1 ->].
    destruct (create_builtin_set (poolkey_new Mel Erg) (set_pools s m1)) as [m2 ->]. reflexivity. }
  rewrite T. destruct (tip_902 s); rewrite !create_builtin_get; destruct (get_pool s k); try reflexivity;
    destruct (_ =? _); try reflexivity; destruct (_ =? _); reflexivity.
Qed.

(* one leg of the peg as the code writes it: a swap if the reserve is short of the target *)
Definition peg_leg (c : bool) (p : pool) (l r : N) : res pool :=
  if c then (x <- swap_many p l r ;; Ok (fst (fst x))) else Ok p.

Definition nudge (p : pool) (l r : N) (p' : pool) : Prop :=
  p' = p \/ exists lw rw, swap_many p l r = Ok (p', lw, rw).

Lemma nudge_of p c l r p' : peg_leg c p l r = Ok p' -> nudge p l r p'.
Proof.
  unfold peg_leg. destruct c; intros H; [|injection H as <-; left; reflexivity].
  inv_bind H as x Hx. injection H as <-. destruct x as [[q lw] rw]. right. eauto.
Qed.

Lemma nudge_flow p l r p' :
  nudge p l r p' -> p_lefts p' <= p_lefts p + l /\ p_rights p' <= p_rights p + r /\ p_liqs p' = p_liqs p.
Proof.
  intros [-> | (lw & rw & H)]; [lia|]. pose proof (swap_many_liqs _ _ _ _ _ _ H). apply swap_many_flow in H. lia.
Qed.

Lemma process_pegging_inv s s' :
  process_pegging s = Ok s' ->
  exists sm sm1 sm2 x y,
    get_pool s (poolkey_new Mel Sym) = Some sm /\
    x <= MAX128 / (if tip_902 s then 200 else 1000) /\ y <= MAX128 / (if tip_902 s then 200 else 1000) /\
    nudge sm x 0 sm1 /\ nudge sm1 0 y sm2 /\
    s' = put_pool s (poolkey_new Mel Sym) sm2.
Proof.
  unfold process_pegging. destruct (get_pool s (poolkey_new Mel Sym)) as [sm|]; [|discriminate].
  intros H. inv_bind H as x Hx. destruct x as [xn xd].
  match type of H with (if ?c then _ else _) = _ => destruct c end; [discriminate|].
  inv_bind H as sm1 H1. inv_bind H as sm2 H2. injection H as <-. apply nudge_of in H1, H2.
  eexists sm, sm1, sm2, _, _. split; [reflexivity|].
  refine (conj _ (conj _ (conj H1 (conj H2 eq_refl)))); apply throttled_le; destruct (tip_902 s); discriminate.
Qed.

Lemma process_pegging_bounds s s' :
  process_pegging s = Ok s' ->
  exists sm sm2, get_pool s (poolkey_new Mel Sym) = Some sm /\ s' = put_pool s (poolkey_new Mel Sym) sm2 /\
    p_lefts sm2 <= p_lefts sm + MAX128 / (if tip_902 s then 200 else 1000) /\
    p_rights sm2 <= p_rights sm + MAX128 / (if tip_902 s then 200 else 1000) /\ p_liqs sm2 = p_liqs sm.
Proof.
  intros H. destruct (process_pegging_inv s s' H) as (sm & sm1 & sm2 & x & y & Esm & Hx & Hy & N1 & N2 & ->).
  apply nudge_flow in N1, N2. exists sm, sm2. repeat split; try assumption; lia.
Qed.

Lemma process_pegging_set s s' : process_pegging s = Ok s' -> exists m, s' = set_pools s m.
Proof. intros (sm & sm1 & sm2 & x & y & _ & _ & _ & _ & _ & ->)%process_pegging_inv. eexists. reflexivity. Qed.

Lemma apply_tip_909_inv s s' :
  apply_tip_909 s = Ok s' ->
  exists sm sm' mel x es es' a b f e,
    (s_height s - TIP_909_HEIGHT) / 1000000 < 128 /\
    get_pool s (poolkey_new Mel Sym) = Some sm /\ swap_many sm 0 f = Ok (sm', mel, x) /\
    s_fee_pool s + mel < U128 /\
    get_pool (put_pool s (poolkey_new Mel Sym) sm') (poolkey_new Erg Sym) = Some es /\
    swap_many es 0 e = Ok (es', a, b) /\
    f + e <= N.shiftr (2 ^ 20) ((s_height s - TIP_909_HEIGHT) / 1000000) /\
    s' = put_pool (set_fees (put_pool s (poolkey_new Mel Sym) sm') (s_fee_pool s + mel) (s_tips s)) (poolkey_new Erg Sym) es'.
Proof.
  unfold apply_tip_909. destruct (N.leb_spec 128 ((s_height s - TIP_909_HEIGHT) / 1000000)) as [|Hdiv]; [discriminate|].
  destruct (get_pool s (poolkey_new Mel Sym)) as [sm|]; [|discriminate].
  intros H. inv_bind H as r Hr. destruct r as [[sm' mel] x]. inv_bind H as fp Hfp.
  apply add128_ok in Hfp as [-> Hfp]. cbn [s_fee_pool s_tips put_pool set_pools] in Hfp, H.
  match type of H with context [get_pool ?st ?k] => destruct (get_pool st k) as [es|] eqn:Ees end; [|discriminate].
  inv_bind H as r2 Hr2. injection H as <-. destruct r2 as [[es' a] b]. cbn [fst].
  eexists sm, sm', mel, x, es, es', a, b, _, _. repeat split; try eassumption; try reflexivity.
  apply subsidy_split.
Qed.

Lemma apply_tip_909_set s s' : apply_tip_909 s = Ok s' -> exists m fp, s' = set_fees (set_pools s m) fp (s_tips s).
Proof.
  intros (sm & sm' & mel & x & es & es' & a & b & f & e & _ & _ & _ & _ & _ & _ & _ & ->)%apply_tip_909_inv.
  eexists _, _. reflexivity.
Qed.

Lemma swap_request_spec s t :
  is_swap_request s t = true ->
  t_kind t = KSwap /\ exists k p c,
    tx_pool t = Some k /\ get_pool s k = Some p /\ 1 <= p_lefts p /\ 1 <= p_rights p /\
    s_coins s !! coin_key (t_hash t) 0 = Some c /\
    (cd_denom (out0 t) = fst k \/ cd_denom (out0 t) = snd k).
Proof.
  unfold is_swap_request, has_coin, out0. intros H. apply andb_true_iff in H as [Hk H]. apply txkind_eqb_eq in Hk.
  destruct (t_outputs t) as [|o0 outs]; [discriminate|]. apply andb_true_iff in H as [Hc H].
  destruct (s_coins s !! coin_key (t_hash t) 0) as [c|]; [|discriminate].
  destruct (tx_pool t) as [k|]; [|discriminate]. destruct (get_pool s k) as [p|] eqn:Ep; [|discriminate].
  apply andb_true_iff in H as [H Hd]. rewrite orb_true_iff, !denom_eqb_eq in Hd.
  split; [exact Hk|]. exists k, p, c. cbn [nth]. repeat split; try reflexivity; try assumption; lia.
Qed.

Lemma deposit_request_spec s t :
  is_deposit_request s t = true ->
  t_kind t = KLiqDeposit /\ exists k c0 c1,
    tx_pool t = Some k /\
    (forall p, get_pool s k = Some p -> p_liqs p = 0 \/ 1 <= p_lefts p /\ 1 <= p_rights p) /\
    s_coins s !! coin_key (t_hash t) 0 = Some c0 /\ s_coins s !! coin_key (t_hash t) 1 = Some c1 /\
    cd_denom (out0 t) = fst k /\ cd_denom (out1 t) = snd k.
Proof.
  unfold is_deposit_request, has_coin. intros H.
  apply andb_true_iff in H as [H Hp]. apply andb_true_iff in H as [H Hc1]. apply andb_true_iff in H as [H Hc0].
  apply andb_true_iff in H as [Hk _]. apply txkind_eqb_eq in Hk.
  destruct (s_coins s !! coin_key (t_hash t) 0) as [c0|]; [|discriminate].
  destruct (s_coins s !! coin_key (t_hash t) 1) as [c1|]; [|discriminate].
  destruct (tx_pool t) as [k|]; [|discriminate].
  apply andb_true_iff in Hp as [Hp F1]. apply andb_true_iff in Hp as [Hp F0]. apply denom_eqb_eq in F0, F1.
  split; [exact Hk|]. exists k, c0, c1. repeat split; try reflexivity; try assumption.
  intros p Ep. rewrite Ep in Hp. lia.
Qed.

Lemma withdraw_request_spec s t :
  is_withdraw_request SO s t = true ->
  t_kind t = KLiqWithdraw /\ N.of_nat (length (t_outputs t)) = 1 /\ exists k p c,
    tx_pool t = Some k /\ get_pool s k = Some p /\
    s_coins s !! coin_key (t_hash t) 0 = Some c /\
    cd_denom (out0 t) = Custom (so_liq_denom SO (poolkey_code k)).
Proof.
  unfold is_withdraw_request, has_coin. intros H.
  apply andb_true_iff in H as [H Hp]. apply andb_true_iff in H as [H Hc]. apply andb_true_iff in H as [Hk Hn].
  apply txkind_eqb_eq in Hk. apply N.eqb_eq in Hn. destruct (s_coins s !! coin_key (t_hash t) 0) as [c|]; [|discriminate].
  destruct (tx_pool t) as [k|]; [|discriminate]. destruct (get_pool s k) as [p|] eqn:Ep; [|discriminate].
  apply denom_eqb_eq in Hp. split; [exact Hk|]. split; [exact Hn|]. exists k, p, c. auto.
Qed.
End Steps.

Lemma swaps_single_pool_inv k s l s' :
  swaps_single_pool k s l = Ok s' ->
  exists p p' lw rw, get_pool s k = Some p /\
    swap_many p (swap_total (fst k) l) (swap_total (snd k) l) = Ok (p', lw, rw) /\
    s' = put_pool (swaps_go k lw rw (swap_total (fst k) l) (swap_total (snd k) l) l s) k p'.
Proof.
  unfold swaps_single_pool. destruct (get_pool s k) as [p|]; [|discriminate].
  intros H. inv_bind H as r Hr. destruct r as [[p' lw] rw]. injection H as <-. eauto 7.
Qed.

Lemma deposits_single_pool_inv SO k s l s' :
  deposits_single_pool SO k s l = Ok s' ->
  exists p' m,
    pool_deposit (match get_pool s k with Some p => p | None => new_empty_pool end)
      (sat_sum (map (fun t => cd_value (out0 t)) l)) (sat_sum (map (fun t => cd_value (out1 t)) l)) = Ok (p', m) /\
    deposits_go SO k m (sat_mul128 (N.sqrt (sat_sum (map (fun t => cd_value (out0 t)) l)))
                                   (N.sqrt (sat_sum (map (fun t => cd_value (out1 t)) l)))) l m (put_pool s k p') = Ok s'.
Proof. unfold deposits_single_pool. intros H. inv_bind H as pl Hpl. destruct pl as [p' m]. eauto. Qed.

Lemma withdrawals_single_pool_inv k s l s' :
  withdrawals_single_pool k s l = Ok s' ->
  exists p, get_pool s k = Some p /\
    if (p_liqs p =? 0) || (p_liqs p <? sat_sum (map (fun t => cd_value (out0 t)) l)) then s' = s
    else exists p' a b, pool_withdraw p (sat_sum (map (fun t => cd_value (out0 t)) l)) = Ok (p', a, b) /\
           s' = withdrawals_go k a b (sat_sum (map (fun t => cd_value (out0 t)) l)) l (put_pool s k p').
Proof.
  unfold withdrawals_single_pool. destruct (get_pool s k) as [p|]; [|discriminate].
  intros H. exists p. split; [reflexivity|]. destruct (_ || _).
  - injection H as <-. reflexivity.
  - inv_bind H as r Hr. destruct r as [[p' a] b]. injection H as <-. eauto.
Qed.

(* the loop over the pools a phase names: an invariant may mention the keys still to be served *)
Section ForPools.
Variable f : denom * denom -> wstate -> list tx -> res wstate.
Variable reqs : list tx.
Variable I : list (denom * denom) -> wstate -> Prop.

Lemma for_pools_invariant :
  (forall k ks s s', I (k :: ks) s -> f k s (txs_for_pool reqs k) = Ok s' -> I ks s') ->
  forall ks s s', I ks s -> for_pools f reqs ks s = Ok s' -> I [] s'.
Proof.
  intros Step. induction ks as [|k ks IH]; intros s s' Hi H; cbn [for_pools] in H.
  - injection H as <-. exact Hi.
  - inv_bind H as s1 H1. exact (IH s1 s' (Step k ks s s1 Hi H1) H).
Qed.

Lemma for_pools_total :
  (forall k ks s, I (k :: ks) s -> exists s', f k s (txs_for_pool reqs k) = Ok s' /\ I ks s') ->
  forall ks s, I ks s -> exists s', for_pools f reqs ks s = Ok s' /\ I [] s'.
Proof.
  intros Step. induction ks as [|k ks IH]; intros s Hi; cbn [for_pools].
  - eauto.
  - destruct (Step k ks s Hi) as (s1 & -> & Hi1). exact (IH s1 Hi1).
Qed.
End ForPools.
