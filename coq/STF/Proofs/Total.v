(* C09: validation is total.  Proved here: the arithmetic and control-flow panic sites of the model are
   unreachable under the stated guards (each corresponds to a guarded panic site of the code). *)
From MelVerif Require Import STF.Proofs.Tactics STF.Proofs.Pool STF.Proofs.Counts VM.LoopProofs.
From Coq Require Import ZifyN ZifyNat ZifyBool.
Open Scope N_scope.

(* covenants always terminate: the fuel run supplies is never exhausted (from C11) *)
Theorem covenant_execution_terminates O prog hp : run O prog hp <> OutOfFuel.
Proof. apply run_never_out_of_fuel. Qed.

(* a transaction that passed the up-front check cannot overflow the unchecked sums of melstructs *)
Theorem totals_fit_no_overflow t :
  totals_fit t = true -> (exists outs, total_outputs t = Ok outs) /\ (exists w, tx_weight t = Ok w) /\
  forall mult, exists f, min_fee mult t = Ok f.
Proof.
  unfold totals_fit, tx_weight, min_fee. destruct (total_outputs t) as [outs| |]; try discriminate.
  destruct (sum128 _) as [sw| |] eqn:E; try discriminate. intros _.
  split; [eauto|]. split; [eexists; reflexivity|]. intros mult. unfold tx_weight. rewrite E. eexists. reflexivity.
Qed.

(* the fee-multiplier step and the share computation are total functions: the model gives them plain values, not
   outcomes, so the statement about the first says no more than that *)
Theorem fee_multiplier_step_total after901 m d : exists m', move_fee_multiplier after901 m d = m'.
Proof. eauto. Qed.
Theorem share_of_empty_total_is_zero x a : multiply_ratio x a 0 = 0.
Proof. reflexivity. Qed.

Theorem mint_speed_no_overflow difficulty : 1 <= difficulty <= 64 -> 100 * 2 ^ difficulty < U128.
Proof.
  intros [_ H]. assert (2 ^ difficulty <= 2 ^ 64) by (apply N.pow_le_mono_r; [discriminate|exact H]).
  change (2 ^ 64) with 18446744073709551616 in H0. unfold U128. lia.
Qed.

(* a swap request is only settled against a pool with two non-empty sides, and then swap_many cannot panic *)
Theorem settled_swap_cannot_panic p l r :
  1 <= p_lefts p -> 1 <= p_rights p -> p_lefts p + l < U128 -> p_rights p + r < U128 ->
  exists res, swap_many p l r = Ok res.
Proof. intros H1 H2 H3 H4. destruct (swap_many_spec p l r H1 H2 H3 H4) as (acc & E & _). eauto. Qed.

Theorem swap_request_needs_live_pool s t :
  is_swap_request s t = true ->
  exists k p, tx_pool t = Some k /\ get_pool s k = Some p /\ 1 <= p_lefts p /\ 1 <= p_rights p.
Proof.
  unfold is_swap_request. destruct (txkind_eqb (t_kind t) KSwap); [|discriminate]. cbn [andb].
  destruct (t_outputs t) as [|o0 rest]; [discriminate|].
  destruct (has_coin s (coin_key (t_hash t) 0)); [|discriminate]. cbn [andb].
  destruct (tx_pool t) as [k|]; [|discriminate].
  destruct (get_pool s k) as [p|] eqn:Hp; [|discriminate]. intros H.
  destruct (N.ltb_spec 0 (p_lefts p)) as [H1|]; [|discriminate].
  destruct (N.ltb_spec 0 (p_rights p)) as [H2|]; [|discriminate].
  exists k, p. repeat split; auto; lia.
Qed.

(* a withdrawal is only settled when the pool can pay it, and then PoolState::withdraw cannot panic *)
Theorem guarded_withdraw_cannot_panic k s ws :
  forall p, get_pool s k = Some p -> exists s', withdrawals_single_pool k s ws = Ok s'.
Proof.
  intros p Hp. unfold withdrawals_single_pool. rewrite Hp.
  destruct (N.eqb_spec (p_liqs p) 0) as [E|E]; cbn [orb]; [eauto|].
  destruct (N.ltb_spec (p_liqs p) (sat_sum (map (fun t => cd_value (out0 t)) ws))) as [H|H]; [eauto|].
  destruct (pool_withdraw_spec p _ H ltac:(lia)) as (p' & a & b & -> & _). cbn [obind]. eauto.
Qed.

Theorem spending_cannot_underflow_counts ks cn :
  CountsOk cn -> exists r, remove_coins true ks cn = Ok r.
Proof. intros H. destruct (remove_coins_counts_ok ks cn H) as (r & -> & _). eauto. Qed.

Theorem confirm_total SO s hh proof : exists b, confirm SO s hh proof = b.
Proof. eauto. Qed.
