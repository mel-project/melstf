(* C19 over whole histories: once a faucet transaction has been accepted, its dedup marker stays in the coin
   tree through every later batch and block (it is locked by the covenant hash 0, which no listed covenant
   has, and its id is a hash that is neither a transaction hash nor a reward id), so a faucet with the same
   hash is refused in every later state. *)
From MelVerif Require Import STF.Proofs.Tactics STF.Proofs.MapLemmas STF.Proofs.Frame STF.Proofs.Faucet
  STF.Proofs.Coins STF.Proofs.Covenant STF.Proofs.HashFacts STF.Proofs.History.
From Coq Require Import ZifyN ZifyNat ZifyBool.
Open Scope N_scope.

Section FaucetHistory.
Variable SO : stf_oracle.

(* a coin that nothing can spend: locked by the covenant hash 0 *)
Definition Dead (s : wstate) (k : N) : Prop := exists c, s_coins s !! k = Some c /\ cd_covhash (c_data c) = 0.

(* an input is approved by its own script, found among the listed ones, or because an earlier input of the same
   transaction spends a coin with the same covenant hash - hence the induction on the input's position j *)
Lemma spent_covhash_listed s lh txs s' :
  apply_tx_batch SO s lh txs = Ok s' ->
  exists relevant, load_relevant_coins s txs = Ok relevant /\
  forall t, In t txs -> forall j inp, nth_error (t_inputs t) j = Some inp ->
  exists c, relevant !! input_key inp = Some c /\ In (cd_covhash (c_data c)) (t_covhashes t).
Proof.
  intros H. destruct (accepted_batch_inputs_approved SO s lh txs s' H) as (relevant & Hrel & Happ).
  exists relevant. split; [exact Hrel|]. intros t Ht j.
  induction j as [j IH] using lt_wf_ind. intros inp Hj.
  destruct (Happ t Ht j inp Hj) as (c & Hc & [(j' & inp' & c' & Hlt & Hj' & Hc' & E)|Ha]).
  - exists c. split; [exact Hc|]. destruct (IH j' Hlt inp' Hj') as (c2 & Hc2 & Hin).
    rewrite Hc' in Hc2. injection Hc2 as <-. rewrite <- E. exact Hin.
  - exists c. split; [exact Hc|]. destruct Ha as (bytes & prog & Hf & _).
    apply find_script_sound in Hf as (i & Hi & _). eapply nth_error_In. exact Hi.
Qed.

Section Step.
Variable m : N.                      (* the marker id of the faucet in question *)
Let k := coin_key m 0.

Lemma batch_keeps_dead s lh txs s' :
  apply_tx_batch SO s lh txs = Ok s' ->
  (forall t, In t txs -> t_hash t <> m /\ ~ In 0 (t_covhashes t)) ->
  Dead s k -> Dead s' k.
Proof.
  intros H Hap (c & Hc & Hz). exists c. split; [|exact Hz]. unfold k in *.
  rewrite (batch_coin_at SO s lh txs s' H m 0 ltac:(lia) (fun t Ht => proj1 (Hap t Ht))).
  - (* not spent: the spender would list the covenant hash 0 *)
    rewrite del_all_notin; [exact Hc|]. intros Hi.
    destruct (spent_covhash_listed _ _ _ _ H) as (relevant & Hrel & Hsp).
    pose proof (relevant_input s _ _ _ Hrel Hi) as Er.
    assert (Eo: outputs_map s txs !! coin_key m 0 = None).
    { apply outputs_map_none. intros Ho. apply out_keys_inv in Ho as (t & io & Ht & _ & E).
      apply coin_key_inj in E as [E _]; [|lia|apply N.mod_lt; discriminate]. exact (proj1 (Hap t Ht) (eq_sym E)). }
    rewrite Eo, Hc in Er.
    unfold all_inputs in Hi. apply in_flat_map in Hi as (t & Ht & Hi). apply in_map_iff in Hi as (inp & E & Hinp).
    apply In_nth_error in Hinp as (j & Hj). destruct (Hsp t Ht j inp Hj) as (c2 & Hc2 & Hl).
    rewrite E, Er in Hc2. injection Hc2 as <-. rewrite Hz in Hl. exact (proj2 (Hap t Ht) Hl).
  - (* the marker of a faucet of this batch: that would be the replay, which is rejected *)
    intros t Ht Hf E. apply andb_true_iff in Hf as [Hf _].
    eapply (faucet_replay_rejected SO s lh txs t s'); [exact Ht| |unfold marker_key; rewrite E; eauto|exact H].
    unfold is_faucet in Hf. destruct (t_kind t); cbn in Hf; try discriminate. reflexivity.
Qed.

Lemma block_keeps_dead s a hdr s' :
  seal SO s a = Ok s' ->
  (forall t, In t (sorted_txs s) -> t_hash t <> m) -> so_reward_id SO (s_height s) <> m ->
  Dead s k -> Dead (next_unsealed s' hdr) k.
Proof.
  intros H Hno Hrw (c & Hc & Hz). exists c. split; [|exact Hz]. unfold k.
  rewrite (block_coin_at SO s a hdr s' m 0 ltac:(lia) H (fun t Ht _ => Hno t Ht) Hrw). exact Hc.
Qed.

(* no transaction filed in the current block has the hash m (sealing rewrites coins at such hashes only) *)
Definition NoM (s : wstate) : Prop := forall t, In t (sorted_txs s) -> t_hash t <> m.

(* a transaction that lists the covenant hash 0 could spend the marker; a block boundary must not pay its reward at m *)
Definition apart (s : wstate) (o : hop) : Prop :=
  match o with
  | HBatch lh txs => forall t, In t txs -> t_hash t <> m /\ ~ In 0 (t_covhashes t)
  | HBlock a hdr => so_reward_id SO (s_height s) <> m
  end.
Definition hist_apart := hist_all SO apart.

Theorem marker_stays : forall ops s,
  Dead s k -> NoM s -> hist_apart s ops -> Dead (fold_left (hstep SO) ops s) k.
Proof.
  intros ops s D Nm H.
  refine (proj1 (history_invariant_cases SO (fun s => Dead s k /\ NoM s) apart _ _ ops s (conj D Nm) H)); clear.
  - intros s lh txs s' [D Nm] Ha E. split; [exact (batch_keeps_dead s lh txs s' E Ha D)|].
    intros t Ht. destruct (batch_filed SO s lh txs s' E t Ht) as [Hb|(h & Hh & _)];
      [apply (Ha t Hb)|apply Nm, in_sorted_txs; eauto].
  - intros s a hdr s' [D Nm] Ha E. split; [exact (block_keeps_dead s a hdr s' E Nm Ha D)|].
    intros t Ht. destruct (next_unsealed_no_txs s' hdr t Ht).
Qed.
End Step.

Lemma accepted_faucet_marker_dead s lh txs s' t :
  apply_tx_batch SO s lh txs = Ok s' -> HashOK SO s txs ->
  In t txs -> t_kind t = KFaucet -> is_bug_tx t = false ->
  Dead s' (coin_key (so_faucet_marker SO (t_hash t)) 0).
Proof.
  intros H HK Ht Hk Hb. change (coin_key (so_faucet_marker SO (t_hash t)) 0) with (marker_key SO t).
  assert (Hni: ~ In (marker_key SO t) (all_inputs txs)) by (apply (hk_marker_not_input SO s txs HK); exact Ht).
  destruct (accepted_faucet_leaves_marker SO s lh txs t s' H Ht Hk Hb Hni) as [c Hc].
  exists c. split; [exact Hc|].
  destruct (accepted_batch_coins _ _ _ _ _ H) as (relevant & Hrel & Ec). rewrite Ec in Hc.
  rewrite del_all_notin in Hc by exact Hni.
  apply ins_all_Some in Hc as [Hc|[Hc _]].
  - apply in_flat_map in Hc as (t2 & Ht2 & Hc).
    apply in_tx_inserts in Hc as [(_ & _ & ->)|(i & o & _ & E & _)]; [reflexivity|exfalso].
    exact (hk_marker_ne SO s txs HK t t2 i Ht Ht2 E).
  - exfalso. eapply (faucet_replay_rejected SO s lh txs t s'); eauto.
Qed.

(* C19, "at most once anywhere": after a faucet transaction was accepted, no later state of any history
   accepts a batch containing a faucet with the same hash.  Assumptions (hash oracle): the marker id is not the
   hash of any transaction of the history nor a proposer-reward id, and no transaction lists a covenant whose
   hash is the all-zero address. *)
Theorem faucet_at_most_once s lh1 txs1 s1 t ops lh2 txs2 t2 s2 :
  apply_tx_batch SO s lh1 txs1 = Ok s1 -> HashOK SO s txs1 ->
  In t txs1 -> t_kind t = KFaucet -> is_bug_tx t = false ->
  NoM (so_faucet_marker SO (t_hash t)) s1 -> hist_apart (so_faucet_marker SO (t_hash t)) s1 ops ->
  In t2 txs2 -> t_kind t2 = KFaucet -> t_hash t2 = t_hash t ->
  apply_tx_batch SO (fold_left (hstep SO) ops s1) lh2 txs2 = Ok s2 -> False.
Proof.
  intros H1 HK Ht Hk Hb Hn Ha Ht2 Hk2 Eh H2.
  pose proof (accepted_faucet_marker_dead _ _ _ _ _ H1 HK Ht Hk Hb) as D.
  pose proof (marker_stays _ ops s1 D Hn Ha) as (c & Hc & _).
  eapply (faucet_replay_rejected SO _ lh2 txs2 t2 s2); [exact Ht2|exact Hk2| |exact H2].
  unfold marker_key. rewrite Eh. eauto.
Qed.

(* the definitions, spelled out for the property files *)
Lemma dead_def s k : Dead s k <-> exists c, s_coins s !! k = Some c /\ cd_covhash (c_data c) = 0.
Proof. reflexivity. Qed.
Lemma apart_def m s o :
  apart m s o <->
  match o with
  | HBatch lh txs => forall t, In t txs -> t_hash t <> m /\ ~ In 0 (t_covhashes t)
  | HBlock a hdr => so_reward_id SO (s_height s) <> m
  end.
Proof. destruct o; reflexivity. Qed.
Lemma hist_apart_def m s ops :
  hist_apart m s ops <-> match ops with [] => True | o :: r => apart m s o /\ hist_apart m (hstep SO s o) r end.
Proof. destruct ops; reflexivity. Qed.
End FaucetHistory.
