(* small history-level corollaries: the recorded DOSC speed never decreases (C18); the fee multiplier changes only
   at a block boundary sealed with a proposer action, by the step of C17; a block sealed with an action restarts
   exactly from its header (C08) *)
From MelVerif Require Import STF.Proofs.Tactics STF.Proofs.Frame STF.Proofs.Stakes STF.Proofs.SealCounts
  STF.Proofs.Block STF.Proofs.History.
From Coq Require Import ZifyN ZifyNat ZifyBool.
Open Scope N_scope.

Section Misc.
Variable SO : stf_oracle.

Theorem speed_never_decreases : forall ops s, s_dosc_speed s <= s_dosc_speed (fold_left (hstep SO) ops s).
Proof.
  intros ops s0.
  apply (history_invariant_cases SO (fun s => s_dosc_speed s0 <= s_dosc_speed s) (fun _ _ => True)).
  - intros s lh txs s' Hs _ E. pose proof (accepted_batch_speed_monotone SO s lh txs s' E). lia.
  - intros s a hdr s' Hs _ E.
    assert (Enext: s_dosc_speed (next_unsealed s' hdr) = s_dosc_speed s') by apply next_unsealed_link.
    rewrite Enext, (seal_speed SO s a s' E). exact Hs.
  - lia.
  - apply hist_all_trivial. intros _ _. exact I.
Qed.

Theorem hstep_fee_mult s o :
  s_fee_mult (hstep SO s o) =
  match o with
  | HBlock (Some act) hdr =>
      match seal SO s (Some act) with Ok _ => move_fee_multiplier (tip_901 s) (s_fee_mult s) (a_delta act) | _ => s_fee_mult s end
  | _ => s_fee_mult s
  end.
Proof.
  destruct o as [lh txs|a hdr]; cbn [hstep].
  - destruct (apply_tx_batch SO s lh txs) as [s'| |] eqn:E; [|reflexivity|reflexivity].
    destruct (apply_tx_batch_frame SO s lh txs s' E) as (_ & _ & _ & _ & Em). exact Em.
  - destruct a as [act|].
    + destruct (seal SO s (Some act)) as [s'| |] eqn:E; [|reflexivity|reflexivity].
      rewrite (next_unsealed_fee_mult s' hdr). exact (seal_fee_mult SO s (Some act) s' E).
    + destruct (seal SO s None) as [s'| |] eqn:E; [|reflexivity|reflexivity].
      rewrite (next_unsealed_fee_mult s' hdr). exact (seal_fee_mult SO s None s' E).
Qed.
End Misc.

Section Restart.
Variable SO : stf_oracle.
(* C08 over histories: every block of every history that is sealed with a proposer action restarts exactly - the
   state rebuilt by from_block from the block's header and contents IS the sealed state *)
Theorem reachable_block_restarts_exactly ops s act sealed R h :
  Good s -> hist_ok SO s ops ->
  seal SO (fold_left (hstep SO) ops s) (Some act) = Ok sealed ->
  reward_fresh SO (fold_left (hstep SO) ops s) ->
  header_of SO R sealed = Ok h ->
  from_block h (map snd (map_to_list (s_txs sealed))) (s_history sealed) (s_coins sealed) (s_counts sealed)
             (s_pools sealed) (s_stakes sealed) = sealed.
Proof.
  intros G H Hs Hr Hh. pose proof (history_good SO ops s G H) as Gf.
  destruct (seal_counts SO _ _ _ Gf Hs (fun _ => Hr)) as [_ K].
  apply (restart_equivalence SO sealed R h Hh); [exact (seal_action_clears_tips SO _ act sealed Hs)|exact K].
Qed.
End Restart.
