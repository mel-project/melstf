(* C01 / C15 / C16 at sealing, lifted from one pool to all pools of a list K (any list of pool names with pairwise
   different codes that contains every pool a request names): coins + reserves of a denomination, against the
   liquidity recorded for it, never grow while the requests of a block are settled ([settles]), and over a whole
   seal grow by no more than the bootstrap, the peg and the subsidy add ([seal_settles]). *)
From MelVerif Require Import STF.Proofs.Tactics STF.Proofs.SealSteps STF.Proofs.Frame STF.Proofs.Supply
  STF.Proofs.Pool STF.Proofs.SealCoins STF.Proofs.HashFacts STF.Proofs.BatchSupply STF.Proofs.SealSupply
  STF.Proofs.PoolKeys.
From Coq Require Import ZifyN ZifyNat ZifyBool.
Open Scope N_scope.

Lemma in_txs_for_pool reqs k t : In t (txs_for_pool reqs k) <-> In t reqs /\ tx_pool t = Some k.
Proof.
  unfold txs_for_pool. rewrite filter_In. split; intros [H1 H2]; (split; [exact H1|]).
  - destruct (tx_pool t) as [k'|]; [|discriminate]. apply poolkey_eqb_true in H2. congruence.
  - rewrite H2. unfold poolkey_eqb. rewrite !denom_eqb_refl. reflexivity.
Qed.

Lemma tx_pool_canonical t k : tx_pool t = Some k -> fst k <> snd k /\ fst k <> NewCustom /\ snd k <> NewCustom.
Proof.
  unfold tx_pool. destruct (t_poolkey t) as [k0|]; [|discriminate].
  destruct (canonical_key k0 (t_data t)) eqn:E; [|discriminate]. intros H. injection H as <-.
  apply canonical_key_spec in E. tauto.
Qed.

Lemma fix_denom_id t d : d <> NewCustom -> fix_denom t d = d.
Proof. destruct d; cbn; congruence. Qed.

Lemma key_pairs_filter_nodup (p : tx -> bool) l : NoDup (key_pairs l) -> NoDup (key_pairs (List.filter p l)).
Proof.
  unfold key_pairs. induction l as [|t l IH]; intros H; cbn [List.filter flat_map]; [constructor|].
  cbn [flat_map app] in H. inversion H as [|? ? N1 H1]; subst. inversion H1 as [|? ? N2 H2]; subst.
  assert (Sub: forall key, In key (flat_map (fun t => [key0 t; key1 t]) (List.filter p l)) -> In key (flat_map (fun t => [key0 t; key1 t]) l)).
  { intros key Hin. apply in_flat_map in Hin as (t' & Ht' & Hk). apply filter_In in Ht' as [Ht' _]. apply in_flat_map. eauto. }
  destruct (p t); [|apply IH; exact H2]. cbn [flat_map app].
  constructor; [intros [E|Hin]; [apply N1; left; exact E|apply N1; right; apply Sub; exact Hin]|].
  constructor; [intros Hin; apply N2; apply Sub; exact Hin|apply IH; exact H2].
Qed.

Lemma key0_of_pairs l : NoDup (key_pairs l) -> NoDup (map key0 l).
Proof.
  unfold key_pairs. induction l as [|t l IH]; intros H; cbn [map]; [constructor|].
  cbn [flat_map app] in H. inversion H as [|? ? N1 H1]; subst. inversion H1 as [|? ? N2 H2]; subst.
  constructor; [|apply IH; exact H2]. intros Hin. apply N1. right.
  apply in_map_iff in Hin as (t' & E & Ht'). apply in_flat_map. exists t'. split; [exact Ht'|]. rewrite <- E. left. reflexivity.
Qed.

Lemma key_pairs_owner reqs t t' key :
  NoDup (key_pairs reqs) -> In t reqs -> In t' reqs -> In key [key0 t; key1 t] -> In key [key0 t'; key1 t'] -> t = t'.
Proof. intros Hnd Ht Ht' H1 H2. eapply (NoDup_flat_map_inj (fun t => [key0 t; key1 t])); eauto. Qed.

Lemma key_pairs_apart reqs k k2 key :
  NoDup (key_pairs reqs) -> k <> k2 -> In key (key_pairs (txs_for_pool reqs k)) -> ~ In key (key_pairs (txs_for_pool reqs k2)).
Proof.
  intros Hnd Hne H1 H2. apply in_flat_map in H1 as (t & Ht & Hk). apply in_flat_map in H2 as (t' & Ht' & Hk').
  apply in_txs_for_pool in Ht as [Ht E]. apply in_txs_for_pool in Ht' as [Ht' E'].
  assert (t = t') by (eapply key_pairs_owner; eauto). subst t'. congruence.
Qed.

Lemma other_kind_untouched (l : list tx) (reqs : list tx) (kind : txkind) t :
  NoDup (key_pairs l) -> In t l -> (forall t', In t' reqs -> In t' l /\ t_kind t' = kind) -> t_kind t <> kind ->
  untouched_by reqs (key0 t) /\ untouched_by reqs (key1 t).
Proof.
  intros Hnd Ht Hreq Hk.
  assert (G: forall key, In key [key0 t; key1 t] -> untouched_by reqs key).
  { intros key Hkey t' Ht'. destruct (Hreq t' Ht') as [Hin Ek].
    split; intros E; apply Hk; rewrite <- Ek; f_equal; eapply (key_pairs_owner l t t' key); eauto; rewrite E; cbn; auto. }
  split; apply G; cbn; auto.
Qed.

Section Lift.
Variable K : list (denom * denom).
(* PoolKey::to_bytes is injective on the pools considered *)
Hypothesis Kcodes : NoDup (map poolkey_code K).

Definition pool_at (s : wstate) (k : denom * denom) : pool :=
  match get_pool s k with Some p => p | None => new_empty_pool end.

(* a quantity of each pool, summed over K; [psum d] and [liq_of d] below are instances, by conversion *)
Definition ksum (g : denom * denom -> pool -> N) (s : wstate) : N := nsum (map (fun k => g k (pool_at s k)) K).
Definition psum (d : denom) (s : wstate) : N := nsum (map (fun k => side d k (pool_at s k)) K).

Lemma side_empty d k : side d k new_empty_pool = 0.
Proof. unfold side, new_empty_pool. cbn. destruct (denom_eqb d (fst k)), (denom_eqb d (snd k)); reflexivity. Qed.

Lemma ksum_update g s s' k p' :
  In k K -> s_pools s' = <[poolkey_code k := p']> (s_pools s) ->
  ksum g s' + g k (pool_at s k) = ksum g s + g k p'.
Proof.
  intros Hk Ep. unfold ksum. revert Kcodes Hk. generalize K as l.
  induction l as [|k0 l IH]; intros Hnd Hin; [contradiction|].
  cbn [map nsum]. cbn [map] in Hnd. inversion Hnd as [|? ? Hni Hnd']; subst.
  assert (Hother: forall l0, ~ In (poolkey_code k) (map poolkey_code l0) ->
            map (fun k1 => g k1 (pool_at s' k1)) l0 = map (fun k1 => g k1 (pool_at s k1)) l0).
  { intros l0 Hn. apply map_ext_in. intros k1 Hk1. unfold pool_at, get_pool. rewrite Ep, lookup_insert_ne; [reflexivity|].
    intros E. apply Hn. rewrite E. apply in_map. exact Hk1. }
  destruct Hin as [->|Hin].
  - rewrite (Hother l Hni). unfold pool_at at 1, get_pool. rewrite Ep, lookup_insert. lia.
  - assert (Hne: poolkey_code k0 <> poolkey_code k) by (intros E; apply Hni; rewrite E; apply in_map; exact Hin).
    specialize (IH Hnd' Hin). unfold pool_at at 1, get_pool. rewrite Ep, lookup_insert_ne by congruence.
    fold (get_pool s k0). fold (pool_at s k0). lia.
Qed.

Lemma ksum_same g s s' : s_pools s' = s_pools s -> ksum g s' = ksum g s.
Proof. intros E. unfold ksum, pool_at, get_pool. rewrite E. reflexivity. Qed.

Lemma ksum_le g s s' : (forall k, In k K -> g k (pool_at s k) <= g k (pool_at s' k)) -> ksum g s <= ksum g s'.
Proof. intros H. unfold ksum. apply nsum_le_pointwise. exact H. Qed.

Lemma ksum_single g s k :
  In k K -> (forall k1 p, In k1 K -> k1 <> k -> g k1 p = 0) -> ksum g s = g k (pool_at s k).
Proof.
  intros Hk Hz. unfold ksum. assert (Hnd: NoDup K) by (eapply NoDup_map_inv; exact Kcodes).
  revert Hnd Hk Hz. generalize K as l. induction l as [|k0 l IH]; intros Hnd Hin Hz; [contradiction|].
  cbn [map nsum]. inversion Hnd as [|? ? Hni Hnd']; subst. destruct Hin as [->|Hin].
  - rewrite nsum_map_zero; [lia|]. intros k1 H1. apply Hz; [right; exact H1|intros ->; contradiction].
  - rewrite (IH Hnd' Hin) by (intros k1 p H1; apply Hz; right; exact H1).
    rewrite Hz; [lia|left; reflexivity|intros ->; contradiction].
Qed.

Lemma psum_update d s s' k p' :
  In k K -> s_pools s' = <[poolkey_code k := p']> (s_pools s) ->
  psum d s' + side d k (pool_at s k) = psum d s + side d k p'.
Proof. exact (ksum_update (side d) s s' k p'). Qed.

Lemma psum_same d s s' : s_pools s' = s_pools s -> psum d s' = psum d s.
Proof. exact (ksum_same (side d) s s'). Qed.

Lemma K_code_inj k1 k2 : In k1 K -> In k2 K -> poolkey_code k1 = poolkey_code k2 -> k1 = k2.
Proof. intros H1 H2 E. eapply (NoDup_map_inj poolkey_code); eauto. Qed.

Variable SO : stf_oracle.
Definition LDk (k : denom * denom) : denom := Custom (so_liq_denom SO (poolkey_code k)).
Definition liq_of (d : denom) (s : wstate) : N :=
  nsum (map (fun k => if denom_eqb d (LDk k) then p_liqs (pool_at s k) else 0) K).

Lemma liq_of_update d s s' k p' :
  In k K -> s_pools s' = <[poolkey_code k := p']> (s_pools s) ->
  liq_of d s' + (if denom_eqb d (LDk k) then p_liqs (pool_at s k) else 0)
  = liq_of d s + (if denom_eqb d (LDk k) then p_liqs p' else 0).
Proof. exact (ksum_update (fun k p => if denom_eqb d (LDk k) then p_liqs p else 0) s s' k p'). Qed.

Lemma liq_of_same d s s' : s_pools s' = s_pools s -> liq_of d s' = liq_of d s.
Proof. exact (ksum_same (fun k p => if denom_eqb d (LDk k) then p_liqs p else 0) s s'). Qed.

Lemma liq_of_le d s s' : (forall k, In k K -> p_liqs (pool_at s k) <= p_liqs (pool_at s' k)) -> liq_of d s <= liq_of d s'.
Proof.
  intros H. apply (ksum_le (fun k p => if denom_eqb d (LDk k) then p_liqs p else 0)).
  intros k Hk. destruct (denom_eqb d (LDk k)); [apply H; exact Hk|lia].
Qed.

(* the potential: coins + reserves of d, against the liquidity recorded by the pools whose token is d *)
Definition settles (d : denom) (s s' : wstate) : Prop :=
  coin_supply d (s_coins s') + psum d s' + liq_of d s <= coin_supply d (s_coins s) + psum d s + liq_of d s'.

Lemma settles_refl d s : settles d s s.
Proof. unfold settles. lia. Qed.
Lemma settles_trans d a b c : settles d a b -> settles d b c -> settles d a c.
Proof. unfold settles. lia. Qed.

Lemma settles_step d s s1 k p' :
  In k K -> s_pools s1 = <[poolkey_code k := p']> (s_pools s) ->
  LDk k <> fst k -> LDk k <> snd k ->
  (forall d0, d0 <> LDk k -> coin_supply d0 (s_coins s1) + side d0 k p' <= coin_supply d0 (s_coins s) + side d0 k (pool_at s k)) ->
  coin_supply (LDk k) (s_coins s1) + p_liqs (pool_at s k) <= coin_supply (LDk k) (s_coins s) + p_liqs p' ->
  settles d s s1.
Proof.
  intros Hk Ep H1 H2 Hcons Hliq. unfold settles.
  pose proof (psum_update d s s1 k p' Hk Ep) as Hps. pose proof (liq_of_update d s s1 k p' Hk Ep) as Hlq.
  destruct (denom_eqb d (LDk k)) eqn:E.
  - apply denom_eqb_eq in E. subst d.
    rewrite !side_on_side, !(on_side_other _ _ _ _ H1 H2) in Hps. lia.
  - assert (Hd: d <> LDk k) by (intros ->; rewrite denom_eqb_refl in E; discriminate).
    specialize (Hcons d Hd). lia.
Qed.

(* a settlement phase, all pools.  The turn of pool k reads only the frame, pool k and the coins of k's requests,
   and the turns of the other pools leave those alone: at its turn, pool k finds them as they were when the phase began. *)
Definition same_view (k : denom * denom) (l : list tx) (s s0 : wstate) : Prop :=
  frame_fp s0 = frame_fp s /\ get_pool s0 k = get_pool s k /\
  forall key, In key (key_pairs l) -> s_coins s0 !! key = s_coins s !! key.

Lemma for_pools_settles f reqs ks s s' :
  NoDup (key_pairs reqs) -> NoDup ks -> (forall k, In k ks -> In k K) ->
  (forall k s0 s1, In k ks -> same_view k (txs_for_pool reqs k) s s0 -> f k s0 (txs_for_pool reqs k) = Ok s1 ->
     touches k (txs_for_pool reqs k) s0 s1 /\ forall d, settles d s0 s1) ->
  for_pools f reqs ks s = Ok s' -> forall d, settles d s s'.
Proof.
  intros Hreqs Hnd HK turn H.
  refine (proj2 (proj2 (for_pools_invariant f reqs
    (fun ks0 s0 => NoDup ks0 /\ (forall k, In k ks0 -> In k ks /\ same_view k (txs_for_pool reqs k) s s0) /\ forall d, settles d s s0)
    _ ks s s' _ H))).
  - intros k ks0 s0 s1 (Hnd0 & Hv & S) H1. inversion Hnd0 as [|? ? Hni Hnd']; subst.
    destruct (Hv k (or_introl eq_refl)) as [Hk Vk].
    destruct (turn k s0 s1 Hk Vk H1) as [(F & Hpools & Hcoins) S1].
    split; [exact Hnd'|]. split; [|intros d; exact (settles_trans d s s0 s1 (S d) (S1 d))].
    intros k2 Hk2. destruct (Hv k2 (or_intror Hk2)) as [Hk2' (F2 & P2 & C2)]. split; [exact Hk2'|].
    assert (Hne: k2 <> k) by (intros ->; contradiction).
    split; [congruence|]. split.
    + rewrite Hpools; [exact P2|]. intros E. apply Hne. exact (K_code_inj k2 k (HK _ Hk2') (HK _ Hk) E).
    + intros key Hkey. rewrite Hcoins; [exact (C2 key Hkey)|].
      apply untouched_key_pairs. exact (key_pairs_apart reqs k2 k key Hreqs Hne Hkey).
  - split; [exact Hnd|]. split; [|intros d; apply settles_refl]. intros k Hk. split; [exact Hk|]. repeat split.
Qed.

(* a coin at an output id of t is as t declared it: the declared value, and the declared denomination
   (a new-token output under its final name, as output_coins inserts it) *)
Definition as_declared (t : tx) (c : cdh) (o : coindata) : Prop :=
  cd_denom (c_data c) = fix_denom t (cd_denom o) /\ cd_value (c_data c) = cd_value o.

(* the [_def] lemmas spell a definition out for Properties/, where the statements are read *)
Lemma as_declared_def t c o :
  as_declared t c o <-> cd_denom (c_data c) = fix_denom t (cd_denom o) /\ cd_value (c_data c) = cd_value o.
Proof. reflexivity. Qed.

Lemma declared0_of s s0 t c :
  s_coins s0 !! key0 t = s_coins s !! key0 t -> s_coins s !! key0 t = Some c ->
  as_declared t c (out0 t) -> cd_denom (out0 t) <> NewCustom -> declared0 s0 t.
Proof. intros E0 Ec [D V] Hn. rewrite fix_denom_id in D by exact Hn. exists c. rewrite E0. auto. Qed.
Lemma declared1_of s s0 t c :
  s_coins s0 !! key1 t = s_coins s !! key1 t -> s_coins s !! key1 t = Some c ->
  as_declared t c (out1 t) -> cd_denom (out1 t) <> NewCustom -> declared1 s0 t.
Proof. intros E0 Ec [D V] Hn. rewrite fix_denom_id in D by exact Hn. exists c. rewrite E0. auto. Qed.

(* what a settlement phase needs of the state it starts from.  Only the coins of the transactions of its own kind must be
   as declared, where they still exist: a phase rewrites the coins of its own kind of request and leaves the others alone.
   Below height 978392 on the two public networks a deposit's output 1 is not deleted, so conservation fails there:
   those blocks are excluded. *)
Definition ready_for (kind : txkind) (s : wstate) : Prop :=
  legacy_net s && (s_height s <? 978392) = false /\
  (forall t k, In t (sorted_txs s) -> tx_pool t = Some k -> In k K /\ LDk k <> fst k /\ LDk k <> snd k) /\
  NoDup (key_pairs (sorted_txs s)) /\
  (forall t c, In t (sorted_txs s) -> t_kind t = kind -> s_coins s !! key0 t = Some c -> as_declared t c (out0 t)) /\
  (forall t c, In t (sorted_txs s) -> t_kind t = kind -> s_coins s !! key1 t = Some c -> as_declared t c (out1 t)) /\
  nsum (map (fun t => cd_value (out0 t)) (sorted_txs s)) < U128 /\
  nsum (map (fun t => cd_value (out1 t)) (sorted_txs s)) < U128.
Definition ready (s : wstate) : Prop := forall kind, ready_for kind s.

Lemma ready_all s :
  legacy_net s && (s_height s <? 978392) = false ->
  (forall t k, In t (sorted_txs s) -> tx_pool t = Some k -> In k K /\ LDk k <> fst k /\ LDk k <> snd k) ->
  NoDup (key_pairs (sorted_txs s)) ->
  (forall t c, In t (sorted_txs s) -> s_coins s !! key0 t = Some c -> as_declared t c (out0 t)) ->
  (forall t c, In t (sorted_txs s) -> s_coins s !! key1 t = Some c -> as_declared t c (out1 t)) ->
  nsum (map (fun t => cd_value (out0 t)) (sorted_txs s)) < U128 ->
  nsum (map (fun t => cd_value (out1 t)) (sorted_txs s)) < U128 ->
  ready s.
Proof.
  intros A B C D0 D1 E F kind. split; [exact A|]. split; [exact B|]. split; [exact C|].
  split; [intros t0 c Ht _; apply D0; exact Ht|]. split; [intros t0 c Ht _; apply D1; exact Ht|]. split; assumption.
Qed.

Lemma ready_create_builtins s : ready s -> ready (create_builtins s).
Proof. destruct (create_builtins_set s) as [m ->]. intros R. exact R. Qed.

Lemma ready_after kind kind' reqs s s' :
  kind <> kind' -> ready_for kind s -> frame_fp s' = frame_fp s ->
  (forall t, In t reqs -> In t (sorted_txs s) /\ t_kind t = kind') ->
  (forall key, untouched_by reqs key -> s_coins s' !! key = s_coins s !! key) ->
  ready_for kind s'.
Proof.
  intros Hne (A & B & C & D0 & D1 & E & F) Fr Hreq Hco. destruct (frame_fp_facts s' s Fr) as (T & _).
  unfold ready_for. rewrite T, (legacy_frame s' s Fr). split; [exact A|]. split; [exact B|]. split; [exact C|].
  assert (U: forall t, In t (sorted_txs s) -> t_kind t = kind ->
            s_coins s' !! key0 t = s_coins s !! key0 t /\ s_coins s' !! key1 t = s_coins s !! key1 t).
  { intros t Ht Hk. destruct (other_kind_untouched (sorted_txs s) reqs kind' t C Ht Hreq) as [U0 U1]; [congruence|].
    split; apply Hco; assumption. }
  split; [|split; [|split; assumption]]; intros t c Ht Hk; destruct (U t Ht Hk) as [E0 E1].
  - rewrite E0. apply D0; assumption.
  - rewrite E1. apply D1; assumption.
Qed.

Lemma ready_after_swaps kind s s' : kind <> KSwap -> process_swaps s = Ok s' -> ready_for kind s -> ready_for kind s'.
Proof.
  intros Hne H R. apply (ready_after kind KSwap (List.filter (is_swap_request s) (sorted_txs s)) s s' Hne R (frame_process_swaps _ _ H)).
  - intros t Ht. apply filter_In in Ht as [Hin Hr]. split; [exact Hin|apply (swap_request_spec s t Hr)].
  - apply (process_swaps_touches s s' H).
Qed.

Lemma ready_after_deposits kind s s' :
  kind <> KLiqDeposit -> process_deposits SO s = Ok s' -> ready_for kind s -> ready_for kind s'.
Proof.
  intros Hne H R. apply (ready_after kind KLiqDeposit (List.filter (is_deposit_request s) (sorted_txs s)) s s' Hne R (frame_process_deposits SO _ _ H)).
  - intros t Ht. apply filter_In in Ht as [Hin Hr]. split; [exact Hin|apply (deposit_request_spec s t Hr)].
  - apply (process_deposits_touches SO s s' H).
Qed.

Theorem process_swaps_settles s s' :
  process_swaps s = Ok s' -> ready_for KSwap s -> forall d, settles d s s'.
Proof.
  unfold process_swaps. intros H (_ & Hcover & Hkeys & Hd0 & _ & Hs0 & _).
  set (reqs := List.filter (is_swap_request s) (sorted_txs s)) in *.
  assert (Hkeys': NoDup (key_pairs reqs)) by (apply key_pairs_filter_nodup; exact Hkeys).
  refine (for_pools_settles swaps_single_pool reqs _ s s' Hkeys' (pool_keys_sorted_nodup reqs) _ _ H).
  { intros k (t0 & [Hin0 _]%filter_In & E0)%pool_keys_sorted_in. apply (Hcover t0 k Hin0 E0). }
  intros k s0 s1 Hk (_ & _ & Hcoins) H1. split; [exact (swaps_single_pool_touches k s0 _ s1 H1)|].
  apply pool_keys_sorted_in in Hk as (t0 & [Hin0 _]%filter_In & E0).
  destruct (tx_pool_canonical t0 k E0) as (Hsides & N1 & N2). destruct (Hcover t0 k Hin0 E0) as (HkK & _).
  destruct (swaps_single_pool_conserves k Hsides s0 _ s1 H1) as (p & p' & Ep & Epl & Eliq & Hcons).
  { apply key0_of_pairs, key_pairs_filter_nodup. exact Hkeys'. }
  { (* what a swap request is, when the phase begins *)
    intros t Ht. pose proof Ht as [[Hin Hr]%filter_In E]%in_txs_for_pool.
    destruct (swap_request_spec s t Hr) as (Ek & k' & q & c & E' & _ & _ & _ & Ec & Hside).
    rewrite E in E'. injection E' as <-. split; [|exact Hside].
    apply (declared0_of s s0 t c (Hcoins _ (proj1 (in_key_pairs t _ Ht))) Ec); [exact (Hd0 t c Hin Ek Ec)|].
    destruct Hside as [-> | ->]; assumption. }
  { apply nsum_filter_lt, nsum_filter_lt. exact Hs0. }
  intros d. unfold settles. specialize (Hcons d).
  pose proof (psum_update d s0 s1 k p' HkK Epl) as Hps. pose proof (liq_of_update d s0 s1 k p' HkK Epl) as Hlq.
  unfold pool_at in Hps, Hlq. rewrite Ep in Hps, Hlq. rewrite Eliq in Hlq. lia.
Qed.

Definition deposits_fit (s : wstate) : Prop :=
  forall k p'' m, In k K ->
    pool_deposit (pool_at s k)
      (nsum (map (fun t => cd_value (out0 t)) (txs_for_pool (List.filter (is_deposit_request s) (sorted_txs s)) k)))
      (nsum (map (fun t => cd_value (out1 t)) (txs_for_pool (List.filter (is_deposit_request s) (sorted_txs s)) k))) = Ok (p'', m) ->
    p_liqs (pool_at s k) + m < U128.
Definition reserves_fit (s : wstate) : Prop :=
  forall k p, In k K -> get_pool s k = Some p -> p_lefts p < U128 /\ p_rights p < U128.

Theorem process_deposits_settles s s' :
  process_deposits SO s = Ok s' -> ready_for KLiqDeposit s -> deposits_fit s -> forall d, settles d s s'.
Proof.
  unfold process_deposits, deposits_fit. intros H (Hleg & Hcover & Hkeys & Hd0 & Hd1 & Hs0 & Hs1) Hsat.
  set (reqs := List.filter (is_deposit_request s) (sorted_txs s)) in *.
  assert (Hkeys': NoDup (key_pairs reqs)) by (apply key_pairs_filter_nodup; exact Hkeys).
  refine (for_pools_settles (deposits_single_pool SO) reqs _ s s' Hkeys' (pool_keys_sorted_nodup reqs) _ _ H).
  { intros k (t0 & [Hin0 _]%filter_In & E0)%pool_keys_sorted_in. apply (Hcover t0 k Hin0 E0). }
  intros k s0 s1 Hk (F & Eg & Hcoins) H1. split; [exact (deposits_single_pool_touches SO k s0 _ s1 H1)|].
  apply pool_keys_sorted_in in Hk as (t0 & [Hin0 _]%filter_In & E0).
  destruct (tx_pool_canonical t0 k E0) as (_ & N1 & N2). destruct (Hcover t0 k Hin0 E0) as (HkK & HL1 & HL2).
  destruct (deposits_single_pool_conserves SO k HL1 HL2 s0 _ s1 H1) as (p' & Epl & Hcons & Hliq).
  { rewrite (legacy_frame s0 s F). exact Hleg. }
  { apply key_pairs_filter_nodup. exact Hkeys'. }
  { (* what a deposit request is, when the phase begins *)
    intros t Ht. pose proof Ht as [[Hin Hr]%filter_In E]%in_txs_for_pool.
    destruct (deposit_request_spec s t Hr) as (Ek & k' & c0 & c1 & E' & _ & Ec0 & Ec1 & F0 & F1).
    rewrite E in E'. injection E' as <-.
    destruct (in_key_pairs t _ Ht) as [I0 I1].
    split; [apply (declared0_of s s0 t c0 (Hcoins _ I0) Ec0); [exact (Hd0 t c0 Hin Ek Ec0)|rewrite F0; exact N1]|].
    split; [apply (declared1_of s s0 t c1 (Hcoins _ I1) Ec1); [exact (Hd1 t c1 Hin Ek Ec1)|rewrite F1; exact N2]|].
    split; assumption. }
  { apply nsum_filter_lt, nsum_filter_lt. exact Hs0. }
  { apply nsum_filter_lt, nsum_filter_lt. exact Hs1. }
  { cbv zeta. rewrite Eg. exact (fun p'' m => Hsat k p'' m HkK). }
  intros d. apply (settles_step d s0 s1 k p' HkK Epl HL1 HL2); assumption.
Qed.

Theorem process_withdrawals_settles s s' :
  process_withdrawals SO s = Ok s' -> ready_for KLiqWithdraw s -> reserves_fit s -> forall d, settles d s s'.
Proof.
  unfold process_withdrawals, reserves_fit. intros H (_ & Hcover & Hkeys & Hd0 & _ & Hs0 & _) Hbound.
  set (reqs := List.filter (is_withdraw_request SO s) (sorted_txs s)) in *.
  assert (Hkeys': NoDup (key_pairs reqs)) by (apply key_pairs_filter_nodup; exact Hkeys).
  refine (for_pools_settles withdrawals_single_pool reqs _ s s' Hkeys' (pool_keys_sorted_nodup reqs) _ _ H).
  { intros k (t0 & [Hin0 _]%filter_In & E0)%pool_keys_sorted_in. apply (Hcover t0 k Hin0 E0). }
  intros k s0 s1 Hk (_ & Eg & Hcoins) H1. split; [exact (withdrawals_single_pool_touches k s0 _ s1 H1)|].
  apply pool_keys_sorted_in in Hk as (t0 & [Hin0 _]%filter_In & E0). destruct (Hcover t0 k Hin0 E0) as (HkK & HL1 & HL2).
  destruct (withdrawals_single_pool_inv k s0 _ s1 H1) as (p & Ep & _).
  destruct (Hbound k p HkK) as [BL BR]; [rewrite <- Eg; exact Ep|].
  destruct (withdrawals_single_pool_conserves SO k HL1 HL2 s0 _ s1 p H1 Ep BL BR) as (p' & Hcase & Hcons & Hliq).
  { apply key_pairs_filter_nodup. exact Hkeys'. }
  { (* what a withdrawal request is, when the phase begins *)
    intros t Ht. pose proof Ht as [[Hin Hr]%filter_In E]%in_txs_for_pool.
    destruct (withdraw_request_spec SO s t Hr) as (Ek & _ & k' & q & c & E' & _ & Ec & Hden).
    rewrite E in E'. injection E' as <-. split; [|exact Hden].
    apply (declared0_of s s0 t c (Hcoins _ (proj1 (in_key_pairs t _ Ht))) Ec); [exact (Hd0 t c Hin Ek Ec)|rewrite Hden; discriminate]. }
  { apply nsum_filter_lt, nsum_filter_lt. exact Hs0. }
  intros d. destruct Hcase as [[-> _]|Epl]; [apply settles_refl|].
  apply (settles_step d s0 s1 k p' HkK Epl HL1 HL2); unfold pool_at; rewrite Ep; assumption.
Qed.

Lemma before_withdrawals s1 s2 s3 :
  process_swaps s1 = Ok s2 -> process_deposits SO s2 = Ok s3 -> ready s1 -> deposits_fit s2 ->
  ready_for KLiqWithdraw s3 /\ forall d, settles d s1 s3.
Proof.
  intros H1 H2 R1 Hsat. split.
  - apply (ready_after_deposits KLiqWithdraw s2 s3 ltac:(discriminate) H2), (ready_after_swaps KLiqWithdraw s1 s2 ltac:(discriminate) H1), R1.
  - intros d. apply (settles_trans d s1 s2 s3).
    + exact (process_swaps_settles s1 s2 H1 (R1 KSwap) d).
    + apply (process_deposits_settles s2 s3 H2); [|exact Hsat].
      apply (ready_after_swaps KLiqDeposit s1 s2 ltac:(discriminate) H1), R1.
Qed.

Theorem settlement_settles s1 s2 s3 s4 :
  process_swaps s1 = Ok s2 -> process_deposits SO s2 = Ok s3 -> process_withdrawals SO s3 = Ok s4 ->
  legacy_net s1 && (s_height s1 <? 978392) = false ->
  (forall t k, In t (sorted_txs s1) -> tx_pool t = Some k -> In k K /\ LDk k <> fst k /\ LDk k <> snd k) ->
  NoDup (key_pairs (sorted_txs s1)) ->
  (forall t c, In t (sorted_txs s1) -> s_coins s1 !! key0 t = Some c -> as_declared t c (out0 t)) ->
  (forall t c, In t (sorted_txs s1) -> s_coins s1 !! key1 t = Some c -> as_declared t c (out1 t)) ->
  nsum (map (fun t => cd_value (out0 t)) (sorted_txs s1)) < U128 ->
  nsum (map (fun t => cd_value (out1 t)) (sorted_txs s1)) < U128 ->
  (* no 128-bit clamp is reached: issued liquidity does not saturate, reserves fit *)
  (forall k p'' m, In k K ->
     pool_deposit (pool_at s2 k)
       (nsum (map (fun t => cd_value (out0 t)) (txs_for_pool (List.filter (is_deposit_request s2) (sorted_txs s2)) k)))
       (nsum (map (fun t => cd_value (out1 t)) (txs_for_pool (List.filter (is_deposit_request s2) (sorted_txs s2)) k))) = Ok (p'', m) ->
     p_liqs (pool_at s2 k) + m < U128) ->
  (forall k p, In k K -> get_pool s3 k = Some p -> p_lefts p < U128 /\ p_rights p < U128) ->
  forall d, settles d s1 s4.
Proof.
  intros H1 H2 H3 Hleg Hcover Hkeys Hd0 Hd1 Hs0 Hs1 Hsat Hbound d.
  destruct (before_withdrawals s1 s2 s3 H1 H2 (ready_all s1 Hleg Hcover Hkeys Hd0 Hd1 Hs0 Hs1) Hsat) as (R3 & S13).
  exact (settles_trans d s1 s3 s4 (S13 d) (process_withdrawals_settles s3 s4 H3 R3 Hbound d)).
Qed.

(* a denomination that is no pool's liquidity token is conserved; a liquidity token stays backed *)
Corollary settles_conserved d s s' :
  settles d s s' -> liq_of d s' = 0 ->
  coin_supply d (s_coins s') + psum d s' <= coin_supply d (s_coins s) + psum d s.
Proof. unfold settles. lia. Qed.

Corollary settles_backed d s s' :
  settles d s s' -> coin_supply d (s_coins s) + psum d s <= liq_of d s ->
  coin_supply d (s_coins s') + psum d s' <= liq_of d s'.
Proof. unfold settles. lia. Qed.

Definition MS := poolkey_new Mel Sym.
Definition ME := poolkey_new Mel Erg.
Definition ES := poolkey_new Erg Sym.
Definition builtin_codes : list N := [poolkey_code MS; poolkey_code ME; poolkey_code ES].

Lemma create_builtins_only s :
  (forall c, ~ In c builtin_codes -> s_pools (create_builtins s) !! c = s_pools s !! c) /\
  (forall k, p_liqs (pool_at s k) <= p_liqs (pool_at (create_builtins s) k)).
Proof.
  split.
  - intros c Hc. rewrite create_builtins_eq. cbv zeta.
    assert (A: forall k st, In (poolkey_code k) builtin_codes -> s_pools (create_builtin k st) !! c = s_pools st !! c).
    { intros k st Hk. unfold create_builtin. destruct (get_pool st k); [reflexivity|].
      apply lookup_insert_ne. intros E. apply Hc. rewrite <- E. exact Hk. }
    destruct (tip_902 _); rewrite !A by (unfold builtin_codes, MS, ME, ES; cbn [In]; auto); reflexivity.
  - intros k. unfold pool_at. rewrite create_builtins_get. destruct (get_pool s k); [lia|].
    destruct (bootstrap_creates s (poolkey_code k)); cbn; lia.
Qed.

Hypothesis K_builtins : In MS K /\ In ME K /\ In ES K.

Lemma builtin_key_of k : In k K -> In (poolkey_code k) builtin_codes -> k = MS \/ k = ME \/ k = ES.
Proof.
  intros Hk Hc. destruct K_builtins as (K1 & K2 & K3).
  destruct Hc as [E|[E|[E|[]]]]; [left|right; left|right; right]; symmetry; eapply K_code_inj; eauto.
Qed.

Lemma side_MS d p : side d MS p = match d with Mel => p_lefts p | Sym => p_rights p | _ => 0 end.
Proof. unfold side. change MS with (Mel, Sym). destruct d; cbn [fst snd denom_eqb]; lia. Qed.
Lemma side_ES d p : side d ES p = match d with Erg => p_lefts p | Sym => p_rights p | _ => 0 end.
Proof. unfold side. change ES with (Erg, Sym). destruct d; cbn [fst snd denom_eqb]; lia. Qed.

Lemma builtin_sides_custom h k p : In (poolkey_code k) builtin_codes -> In k K -> side (Custom h) k p = 0.
Proof. intros Hc Hk. destruct (builtin_key_of k Hk Hc) as [-> | [-> | ->]]; reflexivity. Qed.

Lemma psum_custom_create h s : psum (Custom h) (create_builtins s) = psum (Custom h) s.
Proof.
  destruct (create_builtins_only s) as [O1 _]. unfold psum. apply f_equal, map_ext_in. intros k Hk.
  destruct (in_dec N.eq_dec (poolkey_code k) builtin_codes) as [Hb|Hb].
  - rewrite !(builtin_sides_custom h k _ Hb Hk). reflexivity.
  - unfold pool_at, get_pool. rewrite (O1 _ Hb). reflexivity.
Qed.

(* MEL and SYM are the pegged pair: the peg and the TIP-909 subsidy mint them by design *)
Definition unpegged (d : denom) : Prop := d <> Mel /\ d <> Sym.

Definition bootstrap (d : denom) (s : wstate) : N := psum d (create_builtins s) - psum d s.

(* everything of d that exists: coins, pool reserves, and for MEL the fee pool and the pending tips.  SealPegged.v
   restates [mass], [peg_room] and [sym_subsidy] as [held], [peg_cap] and [subsidy] for the MEL/SYM case of [seal_settles] *)
Definition mass (d : denom) (s : wstate) : N :=
  coin_supply d (s_coins s) + psum d s + (if denom_eqb d Mel then s_fee_pool s + s_tips s else 0).
(* the most one leg of the peg adds: the distance to a target that fits a u128, throttled *)
Definition peg_room (s : wstate) : N := MAX128 / (if tip_902 s then 200 else 1000).
Definition sym_subsidy (s : wstate) : N :=
  if tip_909 s then N.shiftr (2 ^ 20) ((s_height s - TIP_909_HEIGHT) / 1000000) else 0.
Definition issued (d : denom) (s : wstate) : N :=
  match d with Mel => peg_room s | Sym => peg_room s + sym_subsidy s | _ => 0 end.

Lemma batch_settles d s lh txs s' :
  d <> NewCustom -> apply_tx_batch SO s lh txs = Ok s' -> HashOK SO s txs ->
  mass d s' + liq_of d s <= mass d s + liq_of d s' + batch_issuance d txs.
Proof.
  intros Hd H HK. pose proof (accepted_batch_supply_hash SO s lh txs s' H HK d Hd) as B.
  pose proof (accepted_batch_pools SO s lh txs s' H) as Ep.
  unfold mass. rewrite (psum_same d s s' Ep), (liq_of_same d s s' Ep). unfold fee_part in B. lia.
Qed.

Lemma bootstrap_step d s :
  mass d (create_builtins s) <= mass d s + bootstrap d s /\ liq_of d s <= liq_of d (create_builtins s).
Proof.
  split; [|apply liq_of_le; intros k _; apply (create_builtins_only s)].
  unfold mass, bootstrap. destruct (create_builtins_set s) as [m ->]. cbn [s_coins s_fee_pool s_tips set_pools]. lia.
Qed.

Lemma psum_put d s k p p' :
  In k K -> get_pool s k = Some p -> psum d (put_pool s k p') + side d k p = psum d s + side d k p'.
Proof. intros Hk Ep. pose proof (psum_update d s (put_pool s k p') k p' Hk eq_refl) as H. unfold pool_at in H. rewrite Ep in H. exact H. Qed.

Lemma liq_of_put d s k p p' :
  In k K -> get_pool s k = Some p -> p_liqs p' = p_liqs p -> liq_of d (put_pool s k p') = liq_of d s.
Proof.
  intros Hk Ep E. pose proof (liq_of_update d s (put_pool s k p') k p' Hk eq_refl) as H.
  unfold pool_at in H. rewrite Ep, E in H. lia.
Qed.

Lemma pegging_mass d s s' :
  process_pegging s = Ok s' -> mass d s' <= mass d s + match d with Mel | Sym => peg_room s | _ => 0 end.
Proof.
  intros H. destruct (process_pegging_bounds s s' H) as (sm & sm2 & Esm & -> & HL & HR & _).
  change (poolkey_new Mel Sym) with MS in *.
  pose proof (psum_put d s MS sm sm2 (proj1 K_builtins) Esm) as Hp. rewrite !side_MS in Hp.
  unfold mass, peg_room. cbn [s_coins s_fee_pool s_tips put_pool set_pools]. destruct d; cbn [denom_eqb]; lia.
Qed.

Lemma pegging_liq d s s' : process_pegging s = Ok s' -> liq_of d s' = liq_of d s.
Proof.
  intros H. destruct (process_pegging_bounds s s' H) as (sm & sm2 & Esm & -> & _ & _ & Q).
  exact (liq_of_put d s MS sm sm2 (proj1 K_builtins) Esm Q).
Qed.

(* the subsidy: SYM is minted into the MEL/SYM and ERG/SYM pools; the MEL the first pays out goes to the fee pool *)
Lemma tip909_mass d s s' :
  apply_tip_909 s = Ok s' ->
  mass d s' <= mass d s + match d with Sym => N.shiftr (2 ^ 20) ((s_height s - TIP_909_HEIGHT) / 1000000) | _ => 0 end.
Proof.
  intros H. destruct K_builtins as (KMS & _ & KES).
  destruct (apply_tip_909_inv s s' H) as (sm & sm' & mel & x & es & es' & a & b & f & e & _ & Esm & Hr & _ & Ees & Hr2 & Hfe & ->).
  destruct (swap_many_flow _ _ _ _ _ _ Hr) as (G1 & G2 & _). destruct (swap_many_flow _ _ _ _ _ _ Hr2) as (G3 & G4 & _).
  change (poolkey_new Mel Sym) with MS in *. change (poolkey_new Erg Sym) with ES in *.
  set (sa := put_pool s MS sm') in *. set (sb := set_fees sa (s_fee_pool s + mel) (s_tips s)).
  pose proof (psum_put d s MS sm sm' KMS Esm) as P1. fold sa in P1.
  pose proof (psum_put d sb ES es es' KES Ees) as P2. rewrite (psum_same d sa sb eq_refl) in P2.
  rewrite !side_MS in P1. rewrite !side_ES in P2.
  unfold mass. cbn [s_coins s_fee_pool s_tips put_pool set_pools set_fees sb sa]. destruct d; cbn [denom_eqb]; lia.
Qed.

Lemma tip909_liq d s s' : apply_tip_909 s = Ok s' -> liq_of d s' = liq_of d s.
Proof.
  intros H. destruct K_builtins as (KMS & _ & KES).
  destruct (apply_tip_909_inv s s' H) as (sm & sm' & mel & x & es & es' & a & b & f & e & _ & Esm & Hr & _ & Ees & Hr2 & _ & ->).
  pose proof (swap_many_liqs _ _ _ _ _ _ Hr) as Q1. pose proof (swap_many_liqs _ _ _ _ _ _ Hr2) as Q2.
  set (sa := put_pool s (poolkey_new Mel Sym) sm') in *. set (sb := set_fees sa (s_fee_pool s + mel) (s_tips s)).
  exact (eq_trans (liq_of_put d sb ES es es' KES Ees Q2) (eq_trans (liq_of_same d sa sb eq_refl) (liq_of_put d s MS sm sm' KMS Esm Q1))).
Qed.

Lemma reward_step d s act s' :
  collect_proposer_fee SO s act = Ok s' -> mass d s' <= mass d s /\ s_pools s' = s_pools s.
Proof.
  unfold collect_proposer_fee. intros H. inv_bind H as v Hv. apply add128_ok in Hv as [-> _]. injection H as <-.
  split; [|reflexivity].
  assert (Hb: s_fee_pool s / 65536 <= s_fee_pool s) by (apply N.div_le_upper_bound; lia).
  unfold mass. rewrite coins_put_coin_eq.
  match goal with |- coin_supply _ (<[?k0 := ?c]> ?m) + _ + _ <= _ => pose proof (coin_supply_insert_le d k0 c m) as Hi end.
  unfold val in Hi. cbn [c_data cd_denom cd_value] in Hi.
  match goal with |- _ + psum d ?st + _ <= _ => rewrite (psum_same d s st eq_refl) end.
  cbn [s_coins s_fee_pool s_tips set_fees put_coin set_coins] in Hi |- *. destruct d; cbn [denom_eqb] in Hi |- *; lia.
Qed.

Definition unclamped (s : wstate) : Prop :=
  forall s2 s3, process_swaps (create_builtins s) = Ok s2 -> process_deposits SO s2 = Ok s3 ->
    deposits_fit s2 /\ reserves_fit s3.

(* C01 / C15 / C16 over a whole seal, for every denomination: what exists of d, against the liquidity
   recorded by the pools whose token it is, grows by no more than the bootstrap of the built-in pools and,
   for MEL and SYM, the peg and the subsidy *)
Theorem seal_settles s a s' d :
  seal SO s a = Ok s' -> ready s -> unclamped s ->
  mass d s' + liq_of d s <= mass d s + liq_of d s' + bootstrap d s + issued d s.
Proof.
  intros H R Hclamp.
  apply seal_inv in H as (s5 & s6 & H5 & _ & H6 & H).
  apply preseal_inv in H5 as (s2 & s3 & s4 & H2 & H3 & H4 & H5).
  destruct (Hclamp s2 s3 H2 H3) as [Hsat Hbound].
  destruct (bootstrap_step d s) as [B01 L01]. set (s1 := create_builtins s) in *.
  assert (F1: frame_fp s1 = frame_fp s) by apply frame_create_builtins.
  pose proof (ready_create_builtins s R) as R1. fold s1 in R1.
  destruct (before_withdrawals s1 s2 s3 H2 H3 R1 Hsat) as (R3 & S13).
  pose proof (settles_trans d s1 s3 s4 (S13 d) (process_withdrawals_settles s3 s4 H4 R3 Hbound d)) as S14.
  assert (F4: frame_fp s4 = frame_fp s1).
  { rewrite (frame_process_withdrawals SO _ _ H4), (frame_process_deposits SO _ _ H3). apply (frame_process_swaps _ _ H2). }
  destruct (frame_fp_facts _ _ F4) as (_ & _ & _ & Ef4 & Et4 & _).
  assert (B14: mass d s4 + liq_of d s1 <= mass d s1 + liq_of d s4) by (unfold settles in S14; unfold mass; rewrite Ef4, Et4; lia).
  (* peg and subsidy: their size is read off the frame, which is that of s *)
  assert (F5: frame_fp s5 = frame_fp s) by (rewrite (frame_process_pegging _ _ H5), F4; exact F1).
  destruct (frame_fp_facts _ _ (eq_trans F4 F1)) as (_ & _ & _ & _ & _ & Tip4).
  destruct (frame_fp_facts _ _ F5) as (_ & _ & Eh5 & _ & _ & Tip5).
  pose proof (pegging_mass d s4 s5 H5) as B45. pose proof (pegging_liq d s4 s5 H5) as L45.
  assert (Ecap: peg_room s4 = peg_room s) by (unfold peg_room, tip_902; rewrite Tip4; reflexivity).
  assert (B56: mass d s6 <= mass d s5 + match d with Sym => sym_subsidy s | _ => 0 end /\ liq_of d s6 = liq_of d s5).
  { unfold sym_subsidy, tip_909 in *. rewrite <- (Tip5 TIP_909_HEIGHT), <- Eh5.
    destruct (tip_condition s5 TIP_909_HEIGHT); [exact (conj (tip909_mass d s5 s6 H6) (tip909_liq d s5 s6 H6))|].
    injection H6 as <-. split; [destruct d; lia|reflexivity]. }
  destruct B56 as [B56 L56].
  assert (B6: mass d s' <= mass d s6 /\ liq_of d s' = liq_of d s6).
  { destruct a as [act|]; [|subst s'; split; [lia|reflexivity]].
    destruct (reward_step d _ act s' H) as [B E]. split; [exact B|exact (liq_of_same d _ s' E)]. }
  destruct B6 as [B6 L6]. unfold issued. rewrite Ecap in B45. destruct d; lia.
Qed.

(* for every custom denomination (tokens created by transactions and the pools' liquidity tokens): coins + reserves,
   against the liquidity recorded by the pools whose token it is, never grow.  MEL, SYM and ERG are additionally subject to
   the explicit issuance of the peg, the subsidy and the bootstrap of the built-in pools. *)
Theorem seal_settles_custom s a s' h :
  seal SO s a = Ok s' ->
  legacy_net s && (s_height s <? 978392) = false ->
  (forall t k, In t (sorted_txs s) -> tx_pool t = Some k -> In k K /\ LDk k <> fst k /\ LDk k <> snd k) ->
  NoDup (key_pairs (sorted_txs s)) ->
  (forall t c, In t (sorted_txs s) -> s_coins s !! key0 t = Some c -> as_declared t c (out0 t)) ->
  (forall t c, In t (sorted_txs s) -> s_coins s !! key1 t = Some c -> as_declared t c (out1 t)) ->
  nsum (map (fun t => cd_value (out0 t)) (sorted_txs s)) < U128 ->
  nsum (map (fun t => cd_value (out1 t)) (sorted_txs s)) < U128 ->
  (* no 128-bit clamp is reached in the settlement *)
  (forall s2 s3, process_swaps (create_builtins s) = Ok s2 -> process_deposits SO s2 = Ok s3 ->
     (forall k p'' m, In k K ->
        pool_deposit (pool_at s2 k)
          (nsum (map (fun t => cd_value (out0 t)) (txs_for_pool (List.filter (is_deposit_request s2) (sorted_txs s2)) k)))
          (nsum (map (fun t => cd_value (out1 t)) (txs_for_pool (List.filter (is_deposit_request s2) (sorted_txs s2)) k))) = Ok (p'', m) ->
        p_liqs (pool_at s2 k) + m < U128) /\
     (forall k p, In k K -> get_pool s3 k = Some p -> p_lefts p < U128 /\ p_rights p < U128)) ->
  settles (Custom h) s s'.
Proof.
  intros H Hleg Hcover Hkeys Hd0 Hd1 Hs0 Hs1 Hclamp.
  pose proof (seal_settles s a s' (Custom h) H (ready_all s Hleg Hcover Hkeys Hd0 Hd1 Hs0 Hs1) Hclamp) as S.
  unfold mass, issued, bootstrap in S. rewrite psum_custom_create in S. cbn [denom_eqb] in S. unfold settles. lia.
Qed.

(* ERG and every custom denomination over a whole seal.  MEL and SYM, which the peg and the subsidy mint, have
   their own statement in SealPegged.v. *)
Theorem seal_settles_unpegged s a s' d :
  unpegged d ->
  seal SO s a = Ok s' ->
  legacy_net s && (s_height s <? 978392) = false ->
  (forall t k, In t (sorted_txs s) -> tx_pool t = Some k -> In k K /\ LDk k <> fst k /\ LDk k <> snd k) ->
  NoDup (key_pairs (sorted_txs s)) ->
  (forall t c, In t (sorted_txs s) -> s_coins s !! key0 t = Some c -> as_declared t c (out0 t)) ->
  (forall t c, In t (sorted_txs s) -> s_coins s !! key1 t = Some c -> as_declared t c (out1 t)) ->
  nsum (map (fun t => cd_value (out0 t)) (sorted_txs s)) < U128 ->
  nsum (map (fun t => cd_value (out1 t)) (sorted_txs s)) < U128 ->
  (forall s2 s3, process_swaps (create_builtins s) = Ok s2 -> process_deposits SO s2 = Ok s3 ->
     (forall k p'' m, In k K ->
        pool_deposit (pool_at s2 k)
          (nsum (map (fun t => cd_value (out0 t)) (txs_for_pool (List.filter (is_deposit_request s2) (sorted_txs s2)) k)))
          (nsum (map (fun t => cd_value (out1 t)) (txs_for_pool (List.filter (is_deposit_request s2) (sorted_txs s2)) k))) = Ok (p'', m) ->
        p_liqs (pool_at s2 k) + m < U128) /\
     (forall k p, In k K -> get_pool s3 k = Some p -> p_lefts p < U128 /\ p_rights p < U128)) ->
  coin_supply d (s_coins s') + psum d s' + liq_of d s
  <= coin_supply d (s_coins s) + psum d s + liq_of d s' + bootstrap d s.
Proof.
  intros [Hm Hs] H Hleg Hcover Hkeys Hd0 Hd1 Hs0 Hs1 Hclamp.
  pose proof (seal_settles s a s' d H (ready_all s Hleg Hcover Hkeys Hd0 Hd1 Hs0 Hs1) Hclamp) as S.
  unfold mass, issued in S. destruct d; try contradiction; cbn [denom_eqb] in S; lia.
Qed.
End Lift.
