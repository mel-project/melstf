(* Non-vacuity of the history theorems: a concrete history (a batch of three transactions, then a block
   boundary with a proposer action) meets every step hypothesis, starting from a Good state. *)
From MelVerif Require Import STF.Proofs.Tactics STF.Proofs.Frame STF.Proofs.SealCounts STF.Proofs.History
  STF.Proofs.FaucetHistory STF.Proofs.Witness.
Open Scope N_scope.

Definition w_action : action := {| a_delta := 5%Z; a_dest := 4242 |}.
Definition w_hist : list hop := [HBatch w_header w_batch; HBlock (Some w_action) w_header].

Lemma w_state_good : Good w_state.
Proof.
  split; [intros h t H; cbn in H; rewrite lookup_empty in H; discriminate|]. split.
  - unfold CInv. destruct (tip_906 w_state) eqn:T; [apply w_counts_ok; exact T|reflexivity].
  - intros t Ht. apply in_sorted_txs in Ht as (h & Hh). cbn in Hh. rewrite lookup_empty in Hh. discriminate.
Qed.

Lemma w_after_batch_txs : sorted_txs (hstep w_oracle w_state (HBatch w_header w_batch)) = w_batch.
Proof. vm_compute. reflexivity. Qed.

Lemma w_hist_ok : hist_ok w_oracle w_state w_hist.
Proof.
  unfold hist_ok. cbn [hist_all w_hist]. split; [split; [exact w_hash_ok|intros t t' _ []]|]. split; [|exact I].
  cbn [step_ok]. intros _. split.
  - vm_compute. reflexivity.
  - rewrite w_after_batch_txs. intros t [<-|[<-|[<-|[]]]]; vm_compute; discriminate.
Qed.

(* the history really runs: the batch is accepted and the block seals *)
Lemma w_hist_runs :
  s_height (fold_left (hstep w_oracle) w_hist w_state) = 6 /\
  tip_906 (fold_left (hstep w_oracle) w_hist w_state) = true.
Proof. vm_compute. split; reflexivity. Qed.

Definition w_later : list hop := [HBlock (Some w_action) w_header].
Definition w_f4 : tx := w_mk KFaucet [] [w_out 5000 Mel] 1000 14.
(* the hypotheses of [faucet_at_most_once] hold on this history (marker id of the faucet with hash 11), the
   replay is refused in the later state, and a new faucet is still accepted there *)
Lemma w_faucet_once :
  exists s1, apply_tx_batch w_oracle w_state w_header w_batch = Ok s1 /\
    NoM (so_faucet_marker w_oracle (t_hash w_f1)) s1 /\
    hist_apart w_oracle (so_faucet_marker w_oracle (t_hash w_f1)) s1 w_later /\
    (exists e, apply_tx_batch w_oracle (fold_left (hstep w_oracle) w_later s1) w_header [w_f1] = Reject e) /\
    (exists s2, apply_tx_batch w_oracle (fold_left (hstep w_oracle) w_later s1) w_header [w_f4] = Ok s2).
Proof.
  destruct w_accepted as [s1 E]. exists s1. split; [exact E|].
  assert (Es: s1 = hstep w_oracle w_state (HBatch w_header w_batch)) by (cbn [hstep]; rewrite E; reflexivity).
  rewrite Es. split; [|split; [|split]].
  - unfold NoM. rewrite w_after_batch_txs. intros t [<-|[<-|[<-|[]]]]; vm_compute; discriminate.
  - unfold hist_apart. cbn [hist_all w_later apart]. split; [vm_compute; discriminate|exact I].
  - vm_compute. eexists. reflexivity.
  - apply accepted_ex. vm_compute. reflexivity.
Qed.
