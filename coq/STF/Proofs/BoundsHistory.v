(* The history theorems of C01 and C16, and totality of sealing in every reachable state (C09), with nothing assumed about the coins of a sealed state: that the coins at
   the output ids of the block's transactions are as declared, and that no two transactions share an output
   id, are invariants of every history (Declared.v), so a step needs only the hash-oracle assumptions and the
   no-overflow bounds [seal_bounds]. *)
From MelVerif Require Import STF.Proofs.Tactics STF.Proofs.Supply STF.Proofs.Pool STF.Proofs.BatchSupply
  STF.Proofs.SealLift STF.Proofs.SealInv STF.Proofs.HashFacts STF.Proofs.History STF.Proofs.Declared
  STF.Proofs.PoolHistory STF.Proofs.SealPegged STF.Proofs.SupplyHistory STF.Proofs.SealTotal.
From Coq Require Import ZifyN ZifyNat ZifyBool.
Open Scope N_scope.

Section Bounds.
Variable K : list (denom * denom).
Hypothesis Kcodes : NoDup (map poolkey_code K).
Variable SO : stf_oracle.
Hypothesis K_builtins : In MS K /\ In ME K /\ In ES K.

(* the first clause: the deposit rule in force is not the old one (see [seal_premises]) *)
Definition seal_bounds (s : wstate) : Prop :=
  legacy_net s && (s_height s <? 978392) = false /\
  (forall t k1, In t (sorted_txs s) -> tx_pool t = Some k1 -> In k1 K /\ LDk SO k1 <> fst k1 /\ LDk SO k1 <> snd k1) /\
  nsum (map (fun t => cd_value (out0 t)) (sorted_txs s)) < U128 /\
  nsum (map (fun t => cd_value (out1 t)) (sorted_txs s)) < U128 /\
  (forall s2 s3, process_swaps (create_builtins s) = Ok s2 -> process_deposits SO s2 = Ok s3 ->
     (forall k1 p'' m, In k1 K ->
        pool_deposit (pool_at s2 k1)
          (nsum (map (fun t => cd_value (out0 t)) (txs_for_pool (List.filter (is_deposit_request s2) (sorted_txs s2)) k1)))
          (nsum (map (fun t => cd_value (out1 t)) (txs_for_pool (List.filter (is_deposit_request s2) (sorted_txs s2)) k1))) = Ok (p'', m) ->
        p_liqs (pool_at s2 k1) + m < U128) /\
     (forall k1 p1, In k1 K -> get_pool s3 k1 = Some p1 -> p_lefts p1 < U128 /\ p_rights p1 < U128)).

Lemma seal_premises_of_bounds s : Good2 s -> seal_bounds s -> seal_premises K SO s.
Proof.
  intros [(Kd & _) D] (H1 & H2 & H6 & H7 & H8).
  split; [exact H1|]. split; [exact H2|]. split; [apply txkeyed_key_pairs; exact Kd|].
  split; [intros t c Hin Hc; apply (proj1 (D t Hin)); exact Hc|].
  split; [intros t c Hin Hc; apply (proj2 (D t Hin)); exact Hc|]. auto.
Qed.

Definition bounds_step_ok (s : wstate) (o : hop) : Prop :=
  match o with
  | HBatch lh txs => HashOK SO s txs /\
      forall t t', In t txs -> In t' (sorted_txs s) -> so_faucet_marker SO (t_hash t) <> t_hash t'
  | HBlock a hdr => (a <> None -> reward_fresh SO s) /\ seal_bounds s
  end.

Lemma step_ok_of_bounds s o : bounds_step_ok s o -> step_ok SO s o.
Proof. destruct o; cbn [bounds_step_ok step_ok]; [auto|intros [H _]; exact H]. Qed.

Lemma bounds_hstep_good2 s o : Good2 s -> bounds_step_ok s o -> Good2 (hstep SO s o).
Proof. intros G H. apply hstep_good2; [exact G|apply step_ok_of_bounds; exact H]. Qed.

Lemma supply_step_ok_of_bounds s o : Good2 s -> bounds_step_ok s o -> supply_step_ok K SO s o.
Proof.
  intros G H. destruct o as [lh txs|a hdr]; cbn [bounds_step_ok supply_step_ok] in *; [apply H|].
  apply seal_premises_of_bounds; [exact G|apply H].
Qed.

Theorem bounds_history_good2 : forall ops s, Good2 s -> hist_all SO bounds_step_ok s ops -> Good2 (fold_left (hstep SO) ops s).
Proof using K_builtins. exact (history_invariant SO Good2 bounds_step_ok bounds_hstep_good2). Qed.

Lemma bounds_supply_history ops s :
  Good2 s -> hist_all SO bounds_step_ok s ops -> hist_all SO (supply_step_ok K SO) s ops.
Proof. intros G H. exact (proj1 (hist_all_impl SO Good2 _ _ bounds_hstep_good2 supply_step_ok_of_bounds ops s G H)). Qed.

(* C01 over every history: from a state of the invariant (the genesis state is one), under the hash-oracle
   assumptions and the no-overflow bounds alone *)
Theorem supply_history_inv d : d <> NewCustom -> forall ops s,
  Good2 s -> hist_all SO bounds_step_ok s ops ->
  grows K SO d (hist_issuance K SO d s ops) s (fold_left (hstep SO) ops s).
Proof.
  intros Hd ops s G H. exact (supply_history K Kcodes SO K_builtins d Hd ops s (bounds_supply_history ops s G H)).
Qed.

Corollary supply_history_pegged_inv d ops s : pegged d ->
  Good2 s -> hist_all SO bounds_step_ok s ops ->
  held K d (fold_left (hstep SO) ops s) <= held K d s + hist_issuance K SO d s ops.
Proof.
  intros P G H. exact (supply_history_pegged K Kcodes SO K_builtins d ops s P (bounds_supply_history ops s G H)).
Qed.

Hypothesis LD_inj : forall k1 k2, In k1 K -> In k2 K -> LDk SO k1 = LDk SO k2 -> k1 = k2.
Variable k : denom * denom.
Hypothesis Hk : In k K.

Definition pool_bounds_step_ok (s : wstate) (o : hop) : Prop :=
  bounds_step_ok s o /\ match o with HBatch lh txs => batch_issuance (LDk SO k) txs = 0 | HBlock a hdr => True end.

Lemma pool_step_ok_of_bounds s o : Good2 s -> pool_bounds_step_ok s o -> pool_step_ok K SO k s o.
Proof.
  intros G [H Hi]. destruct o as [lh txs|a hdr]; cbn [bounds_step_ok pool_step_ok] in *; [split; [apply H|exact Hi]|].
  apply seal_premises_of_bounds; [exact G|apply H].
Qed.

(* C16 over every history, likewise *)
Theorem pool_backed_forever_inv ops s :
  Good2 s -> Backed K SO k s -> hist_all SO pool_bounds_step_ok s ops -> Backed K SO k (fold_left (hstep SO) ops s).
Proof.
  intros G B H. apply (pool_backed_forever K Kcodes SO K_builtins LD_inj k Hk ops s B).
  refine (proj1 (hist_all_impl SO Good2 pool_bounds_step_ok (pool_step_ok K SO k) _ pool_step_ok_of_bounds ops s G H)).
  intros s0 o G0 [H0 _]. exact (bounds_hstep_good2 s0 o G0 H0).
Qed.

(* the definitions, spelled out for the property files *)
Lemma seal_bounds_def s :
  seal_bounds s <->
  legacy_net s && (s_height s <? 978392) = false /\
  (forall t k1, In t (sorted_txs s) -> tx_pool t = Some k1 -> In k1 K /\ LDk SO k1 <> fst k1 /\ LDk SO k1 <> snd k1) /\
  nsum (map (fun t => cd_value (out0 t)) (sorted_txs s)) < U128 /\
  nsum (map (fun t => cd_value (out1 t)) (sorted_txs s)) < U128 /\
  (forall s2 s3, process_swaps (create_builtins s) = Ok s2 -> process_deposits SO s2 = Ok s3 ->
     (forall k1 p'' m, In k1 K ->
        pool_deposit (pool_at s2 k1)
          (nsum (map (fun t => cd_value (out0 t)) (txs_for_pool (List.filter (is_deposit_request s2) (sorted_txs s2)) k1)))
          (nsum (map (fun t => cd_value (out1 t)) (txs_for_pool (List.filter (is_deposit_request s2) (sorted_txs s2)) k1))) = Ok (p'', m) ->
        p_liqs (pool_at s2 k1) + m < U128) /\
     (forall k1 p1, In k1 K -> get_pool s3 k1 = Some p1 -> p_lefts p1 < U128 /\ p_rights p1 < U128)).
Proof. reflexivity. Qed.
Lemma bounds_step_ok_def s o :
  bounds_step_ok s o <->
  match o with
  | HBatch lh txs => HashOK SO s txs /\
      forall t t', In t txs -> In t' (sorted_txs s) -> so_faucet_marker SO (t_hash t) <> t_hash t'
  | HBlock a hdr => (a <> None -> reward_fresh SO s) /\ seal_bounds s
  end.
Proof. destruct o; reflexivity. Qed.
Lemma pool_bounds_step_ok_def s o :
  pool_bounds_step_ok s o <->
  bounds_step_ok s o /\ match o with HBatch lh txs => batch_issuance (LDk SO k) txs = 0 | HBlock a hdr => True end.
Proof. reflexivity. Qed.
End Bounds.

(* C09: sealing is total in every reachable state - every state of every history from a state of the invariant -
   that has C16's invariant (live built-in pools, backed with room to spare), under the no-overflow bounds *)
Theorem seal_total_reachable (K : list (denom * denom)) (Kcodes : NoDup (map poolkey_code K)) (SO : stf_oracle)
  (K_builtins : In MS K /\ In ME K /\ In ES K)
  (LD_inj : forall k1 k2, In k1 K -> In k2 K -> LDk SO k1 = LDk SO k2 -> k1 = k2) ops s0 :
  Good2 s0 -> hist_ok SO s0 ops ->
  let s := fold_left (hstep SO) ops s0 in
  legacy_net s && (s_height s <? 978392) = false ->
  (forall t k1, In t (sorted_txs s) -> tx_pool t = Some k1 -> In k1 K /\ LDk SO k1 <> fst k1 /\ LDk SO k1 <> snd k1) ->
  nsum (map (fun t => cd_value (out0 t)) (sorted_txs s)) < U128 ->
  nsum (map (fun t => cd_value (out1 t)) (sorted_txs s)) < U128 ->
  (forall s2, process_swaps (create_builtins s) = Ok s2 ->
     forall k1 p'' m, In k1 K ->
       pool_deposit (pool_at s2 k1)
         (nsum (map (fun t => cd_value (out0 t)) (txs_for_pool (List.filter (is_deposit_request s2) (sorted_txs s2)) k1)))
         (nsum (map (fun t => cd_value (out1 t)) (txs_for_pool (List.filter (is_deposit_request s2) (sorted_txs s2)) k1))) = Ok (p'', m) ->
       p_liqs (pool_at s2 k1) + m < U128) ->
  (forall k p1, builtin k -> get_pool (create_builtins s) k = Some p1 ->
     coin_supply (LDk SO k) (s_coins s) + psum K (LDk SO k) (create_builtins s) + 1 <= p_liqs p1) ->
  (forall k p, builtin k -> get_pool s k = Some p -> live p) ->
  (s_height s - TIP_909_HEIGHT) / 1000000 < 128 ->
  (forall s1 sm, preseal_melmint SO s = Ok s1 -> get_pool s1 MS = Some sm -> s_fee_pool s + p_lefts sm + s_tips s < U128) ->
  forall a, exists s', seal SO s a = Ok s'.
Proof.
  intros G H s Hleg Hcover Hs0 Hs1 Hsat Hslack Hlive Hh Hf.
  destruct (history_declared SO ops s0 G H) as (Hkeys & Hd0 & Hd1). fold s in Hkeys, Hd0, Hd1.
  pose proof (history_good2 SO ops s0 G H) as [Gs _]. fold s in Gs.
  exact (seal_total_from_invariants K Kcodes SO K_builtins LD_inj s Hleg Hcover Hkeys Hd0 Hd1 Hs0 Hs1 Hsat Hslack Gs Hlive Hh Hf).
Qed.
