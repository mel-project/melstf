(* Known finding F18, as a theorem about the faithful model: the exception "is_bug_tx t = false" of the C19 theorems
   cannot be dropped.  The grandfathered faucet transaction (any transaction whose hash is BUG_TX_HASH) leaves no
   replay marker, so the state reached by accepting it accepts it again. *)
From MelVerif Require Import STF.Proofs.Tactics STF.Proofs.Faucet STF.Proofs.Witness.
Open Scope N_scope.

Definition w_bug : tx := w_mk KFaucet [] [w_out 5000 Mel] 1000 BUG_TX_HASH.

(* the state after the first acceptance, evaluated once *)
Definition w_bug1 : wstate := Eval vm_compute in ok_or w_state (apply_tx_batch w_oracle w_state w_header [w_bug]).

Lemma w_bug_replayed :
  is_bug_tx w_bug = true /\ t_kind w_bug = KFaucet /\
  exists s1 s2, apply_tx_batch w_oracle w_state w_header [w_bug] = Ok s1 /\
                apply_tx_batch w_oracle s1 w_header [w_bug] = Ok s2 /\
                s_coins s1 !! marker_key w_oracle w_bug = None.
Proof.
  split; [vm_compute; reflexivity|]. split; [reflexivity|].
  exists w_bug1, (ok_or w_bug1 (apply_tx_batch w_oracle w_bug1 w_header [w_bug])).
  repeat split; vm_compute; reflexivity.
Qed.

(* the same on mainnet: the one faucet mainnet accepts, it accepts again *)
Definition w_mainnet : wstate :=
  {| s_network := MAINNET; s_height := 5; s_history := ∅; s_coins := ∅; s_counts := ∅; s_txs := ∅;
     s_fee_pool := 1000; s_fee_mult := 100; s_tips := 0; s_dosc_speed := 1; s_pools := ∅; s_stakes := ∅ |}.
Definition w_mainnet1 : wstate := Eval vm_compute in ok_or w_mainnet (apply_tx_batch w_oracle w_mainnet w_header [w_bug]).

Lemma w_bug_replayed_on_mainnet :
  exists s1 s2, apply_tx_batch w_oracle w_mainnet w_header [w_bug] = Ok s1 /\
                apply_tx_batch w_oracle s1 w_header [w_bug] = Ok s2.
Proof.
  exists w_mainnet1, (ok_or w_mainnet1 (apply_tx_batch w_oracle w_mainnet1 w_header [w_bug])).
  split; vm_compute; reflexivity.
Qed.
