(* Non-vacuity witness for [seal_keeps_backed_pool_live]: the block of Witness3.v is sealed as a whole
   (bootstrap, settlement, peg, subsidy); the MEL/SYM pool is live and backed with room to spare before. *)
From MelVerif Require Import STF.Proofs.Tactics STF.Proofs.Supply STF.Proofs.SealLift STF.Proofs.SealInv
  STF.Proofs.Witness STF.Proofs.Witness2 STF.Proofs.Witness3.
Open Scope N_scope.

Definition w_K3 : list (denom * denom) := [MS; ME; ES].

Lemma w_K3_codes : NoDup (map poolkey_code w_K3).
Proof. vm_compute. repeat constructor; cbn; intuition discriminate. Qed.

Lemma w_K3_builtins : In MS w_K3 /\ In ME w_K3 /\ In ES w_K3.
Proof. unfold w_K3. repeat split; [left; reflexivity|right; left; reflexivity|right; right; left; reflexivity]. Qed.

Lemma w_LD_inj : forall k1 k2, In k1 w_K3 -> In k2 w_K3 -> LDk w_oracle k1 = LDk w_oracle k2 -> k1 = k2.
Proof.
  intros k1 k2 H1 H2 E. unfold w_K3 in H1, H2. cbn in H1, H2.
  destruct H1 as [<-|[<-|[<-|[]]]]; destruct H2 as [<-|[<-|[<-|[]]]]; try reflexivity; revert E; vm_compute; discriminate.
Qed.

Lemma w_key_is_MS : w_key = MS.
Proof. reflexivity. Qed.

Lemma w_seal_ok : exists s', seal w_oracle w_block_state None = Ok s'.
Proof. apply accepted_ex. vm_compute. reflexivity. Qed.

Lemma w_backed :
  In MS w_K3 /\ get_pool w_block_state MS = Some w_pool /\ live w_pool /\
  coin_supply (LDk w_oracle MS) (s_coins w_block_state) + psum w_K3 (LDk w_oracle MS) w_block_state + 1 <= p_liqs w_pool.
Proof.
  split; [left; reflexivity|]. split; [vm_compute; reflexivity|]. split; [unfold live, w_pool; cbn; lia|].
  vm_compute. discriminate.
Qed.
