(* C01: conservation.  Proved here: the per-transaction balance the acceptance of a batch establishes (what a
   transaction declares as outputs plus fee is, denomination by denomination, exactly what its inputs carry),
   and the algebra of the coin supply under insertion and removal. *)
From MelVerif Require Import STF.Proofs.Tactics STF.Proofs.Covenant.
From Coq Require Import ZifyN ZifyNat ZifyBool.
Open Scope N_scope.

Definition sum_of (d : denom) (l : list (denom * N)) : N :=
  fold_right (fun p acc => if denom_eqb d (fst p) then snd p + acc else acc) 0 l.

Fixpoint keys_nodup (l : list (denom * N)) : Prop :=
  match l with
  | [] => True
  | (d, _) :: r => (forall p, In p r -> denom_eqb d (fst p) = false) /\ keys_nodup r
  end.

Lemma assoc_get_sum d l : keys_nodup l -> sum_of d l = default 0 (assoc_get d l).
Proof.
  unfold assoc_get. induction l as [|[d' v] r IH]; intros Hn; cbn [sum_of fold_right find fst snd]; [reflexivity|].
  destruct Hn as [Hd Hr]. fold (sum_of d r).
  destruct (denom_eqb d d') eqn:E.
  - cbn. apply denom_eqb_eq in E. subst d'.
    assert (sum_of d r = 0).
    { clear IH Hr. induction r as [|p r IHr]; cbn [sum_of fold_right]; [reflexivity|]. fold (sum_of d r).
      rewrite (Hd p (or_introl eq_refl)). apply IHr. intros q Hq. apply Hd. right. exact Hq. }
    lia.
  - rewrite (IH Hr). reflexivity.
Qed.

Lemma assoc_add_spec d v : forall l l',
  assoc_add d v l = Ok l' -> keys_nodup l ->
  keys_nodup l' /\ (forall d', sum_of d' l' = sum_of d' l + (if denom_eqb d' d then v else 0)) /\
  (forall p, In p l' -> In (fst p) (map fst l) \/ fst p = d).
Proof.
  induction l as [|[d0 x] r IH]; intros l' H Hn; cbn [assoc_add] in H.
  - injection H as <-. split; [cbn; split; [intros p []|exact I]|]. split.
    + intros d'. cbn [sum_of fold_right fst snd]. destruct (denom_eqb d' d); lia.
    + intros p [<-|[]]. right. reflexivity.
  - destruct Hn as [Hd Hr]. destruct (denom_eqb d d0) eqn:E.
    + inv_bind H as sum Hs. injection H as <-. unfold add128 in Hs. destruct (_ <? U128); [|discriminate]. injection Hs as <-.
      apply denom_eqb_eq in E. subst d0. split; [split; assumption|]. split.
      * intros d'. cbn [sum_of fold_right fst snd]. destruct (denom_eqb d' d); lia.
      * intros p [<-|Hp]; [left; left; reflexivity|]. left. right. apply in_map. exact Hp.
    + inv_bind H as r' Hr'. injection H as <-. destruct (IH _ Hr' Hr) as (Hn' & Hs' & Hk').
      split.
      * split; [|exact Hn']. intros p Hp. destruct (Hk' p Hp) as [Hin|Ep].
        -- apply in_map_iff in Hin as (q & Eq & Hq). rewrite <- Eq. apply Hd. exact Hq.
        -- rewrite Ep, denom_eqb_sym. exact E.
      * split.
        -- intros d'. cbn [sum_of fold_right fst snd]. fold (sum_of d' r') (sum_of d' r). rewrite Hs'.
           destruct (denom_eqb d' d0); lia.
        -- intros p [<-|Hp]; [left; left; reflexivity|]. destruct (Hk' p Hp) as [Hin|Ed]; [left; right; exact Hin|right; exact Ed].
Qed.

(* total_outputs: per-denomination sums of the declared outputs, the fee added to MEL *)
Definition out_sum (d : denom) (t : tx) : N :=
  fold_right (fun o acc => if denom_eqb d (cd_denom o) then cd_value o + acc else acc) 0 (t_outputs t)
  + (if denom_eqb d Mel then t_fee t else 0).

Lemma total_outputs_go_spec : forall outs acc r,
  total_outputs_go outs acc = Ok r -> keys_nodup acc ->
  keys_nodup r /\ forall d, sum_of d r = sum_of d acc
     + fold_right (fun o a => if denom_eqb d (cd_denom o) then cd_value o + a else a) 0 outs.
Proof.
  induction outs as [|o outs IH]; intros acc r H Hn; cbn [total_outputs_go] in H.
  - injection H as <-. split; [exact Hn|]. intros d. cbn. lia.
  - inv_bind H as acc' Ha. destruct (assoc_add_spec _ _ _ _ Ha Hn) as (Hn' & Hs' & _).
    destruct (IH _ _ H Hn') as (Hn2 & Hs2). split; [exact Hn2|].
    intros d. rewrite Hs2, Hs'. cbn [fold_right]. destruct (denom_eqb d (cd_denom o)); lia.
Qed.

Theorem total_outputs_spec t outs :
  total_outputs t = Ok outs -> keys_nodup outs /\ forall d, sum_of d outs = out_sum d t.
Proof.
  unfold total_outputs, out_sum. intros H. inv_bind H as acc Ha.
  destruct (total_outputs_go_spec _ _ _ Ha I) as (Hn & Hs).
  destruct (assoc_add_spec _ _ _ _ H Hn) as (Hn' & Hs' & _). split; [exact Hn'|].
  intros d. rewrite Hs', Hs. cbn [sum_of fold_right]. lia.
Qed.

Section Bal.
Variable SO : stf_oracle.
Variable s : wstate.
Variable lh : header.

(* check_inputs: per-denomination sums of the spent coins *)
Definition in_sum (relevant : gmap N cdh) (d : denom) (ins : list (N * N)) : N :=
  fold_right (fun i acc => match relevant !! input_key i with
                           | Some c => if denom_eqb d (cd_denom (c_data c)) then cd_value (c_data c) + acc else acc
                           | None => acc end) 0 ins.

Lemma check_inputs_sums relevant ns t : forall ins idx good inc r,
  check_inputs SO s lh relevant ns t idx ins good inc = Ok r -> keys_nodup inc ->
  keys_nodup r /\ forall d, sum_of d r = sum_of d inc + in_sum relevant d ins.
Proof.
  induction ins as [|i0 ins IH]; intros idx good inc r H Hn; cbn [check_inputs] in H.
  - injection H as <-. split; [exact Hn|]. intros d. cbn. lia.
  - inv_bind H as gi Hgi. destruct gi as [good1 inc1]. cbn [fst snd] in H.
    destruct (check_input_spec _ _ _ _ _ _ _ _ _ _ _ _ Hgi) as (_ & c & Ec & Hinc & _).
    destruct (assoc_add_spec _ _ _ _ Hinc Hn) as (Hn' & Hs' & _).
    destruct (IH _ _ _ _ H Hn') as (Hn2 & Hs2). split; [exact Hn2|].
    intros d. rewrite Hs2, Hs'. cbn [in_sum fold_right]. rewrite Ec. fold (in_sum relevant d ins).
    destruct (denom_eqb d (cd_denom (c_data c))); lia.
Qed.

(* C01, one transaction: for every denomination other than the new-token placeholder (and ERG for a mint
   transaction, which is bounded by the reward instead), what an accepted non-faucet transaction declares as
   outputs plus its fee is EXACTLY what its inputs carry; a denomination it does not mention among its outputs
   is simply burnt. *)
Theorem accepted_tx_balanced relevant ns t :
  check_tx_validity SO s lh relevant ns t = Ok tt -> t_kind t <> KFaucet ->
  forall d, d <> NewCustom -> ~ (t_kind t = KDoscMint /\ d = Erg) ->
  out_sum d t = 0 \/ out_sum d t = in_sum relevant d (t_inputs t).
Proof.
  unfold check_tx_validity. intros H Hk d Hd Hm.
  inv_bind H as inc Hinc. inv_bind H as outs Houts.
  destruct (check_inputs_sums _ _ _ _ _ _ _ _ Hinc I) as (Hni & Hsi).
  destruct (total_outputs_spec _ _ Houts) as (Hno & Hso).
  unfold check_balanced in H. destruct (txkind_eqb (t_kind t) KFaucet) eqn:Ek.
  { apply txkind_eqb_eq in Ek. contradiction. }
  destruct (forallb _ outs) eqn:Ef; [|discriminate].
  rewrite <- Hso, <- (N.add_0_l (in_sum relevant d (t_inputs t))).
  (* check_inputs starts from the empty list: the 0 is its sum, and Hsi turns both into the sum of [inc] *)
  change 0 with (sum_of d []) at 2. rewrite <- Hsi.
  rewrite (assoc_get_sum d outs Hno), (assoc_get_sum d inc Hni).
  destruct (assoc_get d outs) as [v|] eqn:Fo; [|left; reflexivity].
  right. cbn [default].
  assert (Hin: In (d, v) outs).
  { unfold assoc_get in Fo. destruct (find (fun p => denom_eqb d (fst p)) outs) as [[d' v']|] eqn:Ff; [|discriminate].
    injection Fo as <-. apply find_some in Ff as [Hin Ed]. cbn in Ed. apply denom_eqb_eq in Ed. subst d'. exact Hin. }
  rewrite forallb_forall in Ef. specialize (Ef _ Hin). cbn beta iota in Ef.
  assert (G: (if txkind_eqb (t_kind t) KDoscMint && denom_eqb d Erg then true
              else match assoc_get d inc with Some x => x =? v | None => false end) = true).
  { destruct d; try contradiction; exact Ef. }
  destruct (txkind_eqb (t_kind t) KDoscMint && denom_eqb d Erg) eqn:Em.
  - exfalso. apply andb_true_iff in Em as [E1 E2]. apply denom_eqb_eq in E2. apply Hm.
    split; [apply txkind_eqb_eq; exact E1|exact E2].
  - cbn [default]. destruct (assoc_get d inc) as [x|]; [apply N.eqb_eq in G; subst; reflexivity|discriminate].
Qed.
End Bal.

Definition coin_supply (d : denom) (coins : gmap N cdh) : N :=
  map_fold (fun _ c acc => if denom_eqb (cd_denom (c_data c)) d then acc + cd_value (c_data c) else acc) 0 coins.

Lemma coin_supply_insert_fresh d k c coins :
  coins !! k = None ->
  coin_supply d (<[k := c]> coins) = coin_supply d coins + (if denom_eqb (cd_denom (c_data c)) d then cd_value (c_data c) else 0).
Proof.
  intros Hk. unfold coin_supply. rewrite map_fold_insert_L; [destruct (denom_eqb _ d); lia| |exact Hk].
  intros j1 j2 z1 z2 y _ _ _. destruct (denom_eqb _ d); destruct (denom_eqb _ d); lia.
Qed.

Lemma coin_supply_delete d k c coins :
  coins !! k = Some c ->
  coin_supply d coins = coin_supply d (delete k coins) + (if denom_eqb (cd_denom (c_data c)) d then cd_value (c_data c) else 0).
Proof.
  intros Hk. rewrite <- (insert_delete coins k c Hk) at 1. apply coin_supply_insert_fresh. apply lookup_delete.
Qed.

Theorem spending_never_increases_supply d k coins : coin_supply d (delete k coins) <= coin_supply d coins.
Proof.
  destruct (coins !! k) as [c|] eqn:E.
  - rewrite (coin_supply_delete d k c coins E). lia.
  - rewrite delete_notin by exact E. lia.
Qed.
