(* C04: a coin is spent only when its covenant approves that very spend. *)
From MelVerif Require Import STF.Proofs.Tactics STF.Proofs.Stakes.
Open Scope N_scope.

Section Cov.
Variable SO : stf_oracle.
Variable s : wstate.
Variable lh : header.

(* the transaction carries a covenant whose hash is the coin's covenant hash, it decodes, and run in this input's
   own environment it returns a true value *)
Definition approved (t : tx) (inp : N * N) (c : cdh) (idx : N) : Prop :=
  exists bytes prog,
    find_script (cd_covhash (c_data c)) (t_covhashes t) (t_covenants t) = Some bytes /\
    decode_all bytes = Some prog /\
    covenant_accepts (so_vm SO) prog (env_heap t inp c (idx mod 256) lh) = true.

Lemma find_script_sound h : forall hs cs b,
  find_script h hs cs = Some b -> exists i, nth_error hs i = Some h /\ nth_error cs i = Some b.
Proof.
  induction hs as [|h0 hs IH]; intros cs b H; destruct cs as [|c cs]; cbn in H; try discriminate.
  destruct (N.eqb_spec h0 h) as [->|Hne].
  - injection H as <-. exists 0%nat. auto.
  - destruct (IH _ _ H) as (i & H1 & H2). exists (S i). auto.
Qed.

Lemma check_input_spec relevant ns t idx inp good inc good' inc' :
  check_input SO s lh relevant ns t idx inp good inc = Ok (good', inc') ->
  coin_locked s ns (fst inp) = false /\
  exists c, relevant !! input_key inp = Some c /\
    assoc_add (cd_denom (c_data c)) (cd_value (c_data c)) inc = Ok inc' /\
    (In (cd_covhash (c_data c)) good /\ good' = good \/
     approved t inp c idx /\ good' = cd_covhash (c_data c) :: good).
Proof.
  unfold check_input. destruct (coin_locked s ns (fst inp)); [discriminate|].
  destruct (relevant !! input_key inp) as [c|]; [|discriminate].
  intros H. inv_bind H as g Hg. inv_bind H as inc2 Hinc. injection H as <- <-.
  split; [reflexivity|]. exists c. split; [reflexivity|]. split; [exact Hinc|].
  destruct (existsb (N.eqb (cd_covhash (c_data c))) good) eqn:E.
  - injection Hg as <-. apply existsb_exists in E as (h & Hin & Eh). apply N.eqb_eq in Eh. subst h. auto.
  - destruct (find_script _ _ _) as [bytes|] eqn:Ef; [|discriminate].
    destruct (decode_all bytes) as [prog|] eqn:Ed; [|discriminate].
    destruct (covenant_accepts _ _ _) eqn:Ea; [|discriminate]. injection Hg as <-.
    right. split; [exists bytes, prog; auto|reflexivity].
Qed.

Lemma check_inputs_spec relevant ns t : forall ins idx good inc r,
  check_inputs SO s lh relevant ns t idx ins good inc = Ok r ->
  forall j inp, nth_error ins j = Some inp ->
  exists c, relevant !! input_key inp = Some c /\
    (In (cd_covhash (c_data c)) good \/
     (exists j' inp' c', (j' < j)%nat /\ nth_error ins j' = Some inp' /\ relevant !! input_key inp' = Some c' /\
                         cd_covhash (c_data c') = cd_covhash (c_data c)) \/
     approved t inp c (idx + N.of_nat j)).
Proof.
  induction ins as [|i0 ins IH]; intros idx good inc r H j inp Hj; [destruct j; discriminate|].
  cbn [check_inputs] in H. inv_bind H as gi Hgi. destruct gi as [good1 inc1]. cbn [fst snd] in H.
  destruct (check_input_spec _ _ _ _ _ _ _ _ _ Hgi) as (_ & c0 & Hc0 & _ & Hcov0).
  destruct j as [|j].
  - injection Hj as <-. exists c0. split; [exact Hc0|].
    destruct Hcov0 as [[Hin _]|[Ha _]]; [left; exact Hin|right; right].
    replace (idx + N.of_nat 0) with idx by lia. exact Ha.
  - cbn [nth_error] in Hj. destruct (IH _ _ _ _ H j inp Hj) as (c & Hc & Hcase).
    exists c. split; [exact Hc|].
    destruct Hcase as [Hin|[(j' & inp' & c' & Hlt & Hn & Hr & Eq)|Ha]].
    + (* validated before this input: before the head, or it is the head's hash *)
      assert (Hin0: In (cd_covhash (c_data c)) good \/ cd_covhash (c_data c0) = cd_covhash (c_data c)).
      { destruct Hcov0 as [[_ ->]|[_ ->]]; [left; exact Hin|destruct Hin; auto]. }
      destruct Hin0 as [Hin0|Eh]; [left; exact Hin0|].
      right; left. exists 0%nat, i0, c0. repeat split; auto. lia.
    + right; left. exists (S j'), inp', c'. repeat split; auto. lia.
    + right; right. replace (idx + N.of_nat (S j)) with (idx + 1 + N.of_nat j) by lia. exact Ha.
Qed.

(* C04 for an accepted batch: every input of every transaction is approved by a covenant of the right hash in
   that input's own environment - except inputs that share their covenant hash with an earlier input of the
   same transaction, for which only the earlier evaluation happened (the good_scripts cache of apply_tx_batch:
   finding F15 of DESIGN.md) *)
Theorem accepted_batch_inputs_approved txs s' :
  apply_tx_batch SO s lh txs = Ok s' ->
  exists relevant, load_relevant_coins s txs = Ok relevant /\
  forall t, In t txs -> forall j inp, nth_error (t_inputs t) j = Some inp ->
  exists c, relevant !! input_key inp = Some c /\
    ((exists j' inp' c', (j' < j)%nat /\ nth_error (t_inputs t) j' = Some inp' /\
        relevant !! input_key inp' = Some c' /\ cd_covhash (c_data c') = cd_covhash (c_data c)) \/
     approved t inp c (N.of_nat j)).
Proof.
  intros H. apply apply_tx_batch_ok in H as (relevant & n & [Hrel Hall] & _).
  exists relevant. split; [exact Hrel|]. intros t Ht j inp Hj.
  destruct (Hall t Ht) as (_ & Hval & _). unfold check_tx_validity in Hval. inv_bind Hval as inc Hinc.
  destruct (check_inputs_spec _ _ _ _ _ _ _ _ Hinc j inp Hj) as (c & Hc & [[]|[Hd|Ha]]);
    exists c; (split; [exact Hc|]); [left; exact Hd|right; exact Ha].
Qed.

(* with no covenant hash validated yet ([good] empty, as at the first input of a transaction) the covenant is
   always evaluated *)
Theorem first_input_rejections relevant ns t idx inp inc c :
  coin_locked s ns (fst inp) = false -> relevant !! input_key inp = Some c ->
  check_input SO s lh relevant ns t idx inp [] inc =
  match find_script (cd_covhash (c_data c)) (t_covhashes t) (t_covenants t) with
  | None => Reject ENonexistentScript
  | Some bytes =>
    match decode_all bytes with
    | None => Reject EMalformed
    | Some prog =>
      if covenant_accepts (so_vm SO) prog (env_heap t inp c (idx mod 256) lh)
      then (in' <- assoc_add (cd_denom (c_data c)) (cd_value (c_data c)) inc ;; Ok ([cd_covhash (c_data c)], in'))
      else Reject EViolatesScript
    end
  end.
Proof.
  intros Hl Hc. unfold check_input. rewrite Hl, Hc. cbn [existsb].
  destruct (find_script _ _ _); [|reflexivity]. destruct (decode_all _); [|reflexivity].
  destruct (covenant_accepts _ _ _); reflexivity.
Qed.
End Cov.

Theorem covenant_accepts_iff O prog hp :
  covenant_accepts O prog hp = true <-> exists v n, run O prog hp = Finished (Some v) n /\ into_bool v = true.
Proof.
  unfold covenant_accepts. split.
  - destruct (run O prog hp) as [[v|] n|]; try discriminate. intros H. eauto.
  - intros (v & n & -> & H). exact H.
Qed.

(* which header the covenants of a block see: apply_batch hands them the header stored for the previous
   height - the block the state was built on - and only a state without any stored parent (height 0) falls back
   to the header of the state itself *)
Section LastHeader.
Variable SO : stf_oracle.
Variable rf : wstate -> roots.

Lemma last_header_is_the_parent s h :
  s_history s !! (s_height s - 1) = Some h -> last_header_for SO rf s = Ok h.
Proof. intros E. unfold last_header_for. rewrite E. reflexivity. Qed.

Theorem apply_batch_uses_the_parent_header s h txs :
  s_history s !! (s_height s - 1) = Some h -> apply_batch SO rf s txs = apply_tx_batch SO s h txs.
Proof. intros E. unfold apply_batch. rewrite (last_header_is_the_parent s h E). reflexivity. Qed.

Theorem block_covenants_see_the_sealed_parent s hdr txs :
  apply_batch SO rf (next_unsealed s hdr) txs = apply_tx_batch SO (next_unsealed s hdr) hdr txs.
Proof.
  apply apply_batch_uses_the_parent_header.
  assert (E: s_height (next_unsealed s hdr) = s_height s + 1 /\ s_history (next_unsealed s hdr) !! s_height s = Some hdr).
  { unfold next_unsealed. cbn zeta. destruct (_ && _); cbn; (split; [reflexivity|apply lookup_insert]). }
  destruct E as [E1 E2]. rewrite E1. replace (s_height s + 1 - 1) with (s_height s) by lia. exact E2.
Qed.
End LastHeader.
