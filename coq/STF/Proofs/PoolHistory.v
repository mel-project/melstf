(* C16 over whole histories: a pool that is live and whose liquidity token is backed with room to spare
   (as the built-in pools are from their creation) is live and backed in every later state, through every
   accepted or rejected batch and every block boundary - under the per-step side conditions of the one-step
   theorems (no overflow of the request totals, hash-oracle facts, no faucet issuing the token). *)
From MelVerif Require Import STF.Proofs.Tactics STF.Proofs.Supply STF.Proofs.Pool STF.Proofs.SealCoins
  STF.Proofs.BatchSupply STF.Proofs.SealSupply STF.Proofs.SealLift STF.Proofs.SealInv STF.Proofs.HashFacts
  STF.Proofs.Block STF.Proofs.History.
Open Scope N_scope.

Section PoolHistory.
Variable K : list (denom * denom).
Hypothesis Kcodes : NoDup (map poolkey_code K).
Variable SO : stf_oracle.
Hypothesis K_builtins : In MS K /\ In ME K /\ In ES K.
Hypothesis LD_inj : forall k1 k2, In k1 K -> In k2 K -> LDk SO k1 = LDk SO k2 -> k1 = k2.
Variable k : denom * denom.
Hypothesis Hk : In k K.

Definition Backed (s : wstate) : Prop :=
  exists p, get_pool s k = Some p /\ live p /\
    coin_supply (LDk SO k) (s_coins s) + psum K (LDk SO k) s + 1 <= p_liqs p.

(* the side conditions of [seal_keeps_backed_pool_live], about the state that is sealed.  The first excludes the old
   deposit rule of melmint.rs (process_deposits: on Mainnet and Testnet below height 978392 the second output of a
   deposit request is not removed, which the source itself calls an inflation bug). *)
Definition seal_premises (s : wstate) : Prop :=
  legacy_net s && (s_height s <? 978392) = false /\
  (forall t k1, In t (sorted_txs s) -> tx_pool t = Some k1 -> In k1 K /\ LDk SO k1 <> fst k1 /\ LDk SO k1 <> snd k1) /\
  NoDup (key_pairs (sorted_txs s)) /\
  (forall t c, In t (sorted_txs s) -> s_coins s !! key0 t = Some c -> as_declared t c (out0 t)) /\
  (forall t c, In t (sorted_txs s) -> s_coins s !! key1 t = Some c -> as_declared t c (out1 t)) /\
  nsum (map (fun t => cd_value (out0 t)) (sorted_txs s)) < U128 /\
  nsum (map (fun t => cd_value (out1 t)) (sorted_txs s)) < U128 /\
  (forall s2 s3, process_swaps (create_builtins s) = Ok s2 -> process_deposits SO s2 = Ok s3 ->
     (forall k1 p'' m, In k1 K ->
        pool_deposit (pool_at s2 k1)
          (nsum (map (fun t => cd_value (out0 t)) (txs_for_pool (List.filter (is_deposit_request s2) (sorted_txs s2)) k1)))
          (nsum (map (fun t => cd_value (out1 t)) (txs_for_pool (List.filter (is_deposit_request s2) (sorted_txs s2)) k1))) = Ok (p'', m) ->
        p_liqs (pool_at s2 k1) + m < U128) /\
     (forall k1 p1, In k1 K -> get_pool s3 k1 = Some p1 -> p_lefts p1 < U128 /\ p_rights p1 < U128)).

Definition pool_step_ok (s : wstate) (o : hop) : Prop :=
  match o with
  | HBatch lh txs => HashOK SO s txs /\ batch_issuance (LDk SO k) txs = 0
  | HBlock a hdr => seal_premises s
  end.

Lemma next_unsealed_backed s hdr : Backed s -> Backed (next_unsealed s hdr).
Proof.
  intros (p & Hp & Hl & Hb). exists p.
  split; [unfold get_pool; rewrite next_unsealed_pools; exact Hp|]. split; [exact Hl|].
  rewrite next_unsealed_coins, (psum_same K _ _ _ (next_unsealed_pools s hdr)). exact Hb.
Qed.

Lemma batch_backed s lh txs s' :
  apply_tx_batch SO s lh txs = Ok s' -> HashOK SO s txs -> batch_issuance (LDk SO k) txs = 0 -> Backed s -> Backed s'.
Proof.
  intros E HK Hiss (p & Hp & Hl & Hb).
  destruct (batch_keeps_backed K SO s lh txs s' k p E HK Hiss Hp Hb) as [Hp' Hb']. exists p. auto.
Qed.

Lemma seal_premises_ready s : seal_premises s -> ready K SO s /\ unclamped K SO s.
Proof. intros (A & B & C & D0 & D1 & E & F & U). split; [exact (ready_all K SO s A B C D0 D1 E F)|exact U]. Qed.

Lemma seal_backed s a s' : seal SO s a = Ok s' -> seal_premises s -> Backed s -> Backed s'.
Proof.
  intros E [R U]%seal_premises_ready (p & Hp & Hl & Hb).
  exact (seal_keeps_backed K Kcodes SO K_builtins LD_inj s a s' k p E R U Hk Hp Hl Hb).
Qed.

Theorem pool_backed_forever : forall ops s,
  Backed s -> hist_all SO pool_step_ok s ops -> Backed (fold_left (hstep SO) ops s).
Proof.
  apply (history_invariant_cases SO Backed pool_step_ok).
  - intros s lh txs s' B [HK Hiss] E. exact (batch_backed s lh txs s' E HK Hiss B).
  - intros s a hdr s' B P E. apply next_unsealed_backed. exact (seal_backed s a s' E P B).
Qed.

(* the definitions, spelled out for the property files *)
Lemma backed_def s :
  Backed s <->
  exists p, get_pool s k = Some p /\ live p /\ coin_supply (LDk SO k) (s_coins s) + psum K (LDk SO k) s + 1 <= p_liqs p.
Proof. reflexivity. Qed.
Lemma pool_step_ok_def s o :
  pool_step_ok s o <->
  match o with
  | HBatch lh txs => HashOK SO s txs /\ batch_issuance (LDk SO k) txs = 0
  | HBlock a hdr => seal_premises s
  end.
Proof. destruct o; reflexivity. Qed.
Lemma seal_premises_def s :
  seal_premises s <->
  legacy_net s && (s_height s <? 978392) = false /\
  (forall t k1, In t (sorted_txs s) -> tx_pool t = Some k1 -> In k1 K /\ LDk SO k1 <> fst k1 /\ LDk SO k1 <> snd k1) /\
  NoDup (key_pairs (sorted_txs s)) /\
  (forall t c, In t (sorted_txs s) -> s_coins s !! key0 t = Some c -> as_declared t c (out0 t)) /\
  (forall t c, In t (sorted_txs s) -> s_coins s !! key1 t = Some c -> as_declared t c (out1 t)) /\
  nsum (map (fun t => cd_value (out0 t)) (sorted_txs s)) < U128 /\
  nsum (map (fun t => cd_value (out1 t)) (sorted_txs s)) < U128 /\
  (forall s2 s3, process_swaps (create_builtins s) = Ok s2 -> process_deposits SO s2 = Ok s3 ->
     (forall k1 p'' m, In k1 K ->
        pool_deposit (pool_at s2 k1)
          (nsum (map (fun t => cd_value (out0 t)) (txs_for_pool (List.filter (is_deposit_request s2) (sorted_txs s2)) k1)))
          (nsum (map (fun t => cd_value (out1 t)) (txs_for_pool (List.filter (is_deposit_request s2) (sorted_txs s2)) k1))) = Ok (p'', m) ->
        p_liqs (pool_at s2 k1) + m < U128) /\
     (forall k1 p1, In k1 K -> get_pool s3 k1 = Some p1 -> p_lefts p1 < U128 /\ p_rights p1 < U128)).
Proof. reflexivity. Qed.
End PoolHistory.
