(* Inversion helpers for the outcome monad; the equality tests of the model decide equality.
   Lemma names in the files that build on this one: [f_ok] characterises [f ... = Ok r] by an iff ([obind_ok] is
   the direction [inv_bind] uses, [obind_ok_iff] the whole), [f_spec] lists one-way consequences of [f ... = Ok r],
   [f_char] gives [f] in closed form under stated invariants, [f_frame] says which fields of the state [f] leaves
   alone, [x_counts_ok] that [x] keeps CountsOk. *)
From MelVerif Require Export STF.Model.
Open Scope N_scope.

Lemma obind_ok {E A B} (e : outcome E A) (k : A -> outcome E B) v :
  obind e k = Ok v -> exists a, e = Ok a /\ k a = Ok v.
Proof. destruct e; cbn; intros H; try discriminate. eauto. Qed.

Lemma obind_ok_iff {E A B} (e : outcome E A) (k : A -> outcome E B) v :
  obind e k = Ok v <-> exists a, e = Ok a /\ k a = Ok v.
Proof.
  split; [apply obind_ok|]. intros (a & -> & H). exact H.
Qed.

Tactic Notation "inv_bind" hyp(H) :=
  let a := fresh "a" in let Ha := fresh "Ha" in
  apply obind_ok in H; destruct H as (a & Ha & H).
Tactic Notation "inv_bind" hyp(H) "as" ident(a) ident(Ha) :=
  apply obind_ok in H; destruct H as (a & Ha & H).

Lemma first_error_ok {A} (l : list (res A)) :
  first_error l = Ok tt <-> Forall (fun r => exists v, r = Ok v) l.
Proof.
  induction l as [|r l IH]; cbn.
  - split; [constructor|reflexivity].
  - destruct r as [v|e|p].
    + rewrite IH. split; [intros H; constructor; eauto|intros H; inversion H; auto].
    + split; [discriminate|intros H; inversion H as [|? ? [v Hv] _]; discriminate].
    + split; [discriminate|intros H; inversion H as [|? ? [v Hv] _]; discriminate].
Qed.

Lemma first_error_map_ok {A B} (f : A -> res B) (l : list A) :
  first_error (map f l) = Ok tt <-> forall x, In x l -> exists v, f x = Ok v.
Proof.
  rewrite first_error_ok, Forall_map, Forall_forall. reflexivity.
Qed.

Lemma first_error_units {A} (f : A -> res unit) (l : list A) :
  first_error (map f l) = Ok tt <-> forall x, In x l -> f x = Ok tt.
Proof.
  rewrite first_error_map_ok. split; intros H x Hx; [destruct (H x Hx) as [[] E]; exact E|eauto].
Qed.

Lemma txkind_eqb_eq a b : txkind_eqb a b = true <-> a = b.
Proof. destruct a, b; cbn; split; congruence. Qed.

Lemma denom_eqb_eq a b : denom_eqb a b = true <-> a = b.
Proof.
  split.
  - destruct a, b; cbn; try discriminate; try reflexivity. intros E. apply N.eqb_eq in E. congruence.
  - intros ->. destruct b; cbn; try reflexivity. apply N.eqb_refl.
Qed.
Lemma denom_eqb_refl a : denom_eqb a a = true.
Proof. apply denom_eqb_eq. reflexivity. Qed.
Lemma denom_eqb_sym a b : denom_eqb a b = denom_eqb b a.
Proof. apply Bool.eq_iff_eq_true. rewrite !denom_eqb_eq. split; congruence. Qed.
