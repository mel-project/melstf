(* Invariants of every reachable state: a history is any sequence of batch applications (accepted or not)
   and block boundaries (seal, then the next unsealed state).  C20: the per-covenant counts are right in
   every state of every history that starts in a right state. *)
From MelVerif Require Import STF.Proofs.Tactics STF.Proofs.MapLemmas STF.Proofs.Frame STF.Proofs.Stakes STF.Proofs.Fees STF.Proofs.Faucet
  STF.Proofs.Coins STF.Proofs.Counts STF.Proofs.SealCoins STF.Proofs.HashFacts STF.Proofs.BatchSupply
  STF.Proofs.PermAccept STF.Proofs.SealCounts STF.Proofs.Block.
From Coq Require Import ZifyN ZifyNat ZifyBool.
Open Scope N_scope.

Lemma enumerate_nth {A} (d : A) : forall (l : list A) a i o,
  In (i, o) (enumerate a l) -> o = nth (N.to_nat (i - a)) l d.
Proof.
  induction l as [|x l IH]; intros a i o H; cbn [enumerate] in H; [contradiction|].
  destruct H as [E|H].
  - injection E as <- <-. rewrite N.sub_diag. reflexivity.
  - pose proof (enumerate_range _ _ _ _ H) as R. rewrite (IH _ _ _ H).
    replace (N.to_nat (i - a)) with (S (N.to_nat (i - (a + 1)))) by lia. reflexivity.
Qed.

Definition dflt_cd : coindata := {| cd_covhash := 0; cd_value := 0; cd_denom := Mel; cd_extra := [] |}.

Section Batch.
Variable SO : stf_oracle.

Variable s : wstate.
Variable lh : header.
Variable txs : list tx.
Variable s' : wstate.
Hypothesis Hacc : apply_tx_batch SO s lh txs = Ok s'.

Lemma batch_filed t : In t (sorted_txs s') ->
  In t txs \/ exists h, s_txs s !! h = Some t /\ ~ In h (map t_hash txs).
Proof.
  intros Ht. apply in_sorted_txs in Ht as (h & Hh). rewrite (accepted_batch_txs _ _ _ _ _ Hacc) in Hh.
  apply ins_all_Some in Hh as [Hin|[Hold Hn]]; [left; apply in_tx_bindings in Hin; apply Hin|right].
  exists h. split; [exact Hold|]. unfold tx_bindings in Hn. rewrite map_map in Hn. exact Hn.
Qed.

Hypothesis HK : HashOK SO s txs.
Hypothesis Hmold : forall t t', In t txs -> In t' (sorted_txs s) -> so_faucet_marker SO (t_hash t) <> t_hash t'.

Lemma batch_txkeyed : TxKeyed s -> TxKeyed s'.
Proof.
  intros K h t H. rewrite (accepted_batch_txs _ _ _ _ _ Hacc) in H.
  apply ins_all_Some in H as [H|[H _]]; [apply in_tx_bindings in H; apply H|apply (K _ _ H)].
Qed.

Lemma batch_cinv : CInv s -> CInv s'.
Proof.
  unfold CInv. rewrite (apply_tx_batch_tip906 _ _ _ _ _ Hacc). intros C. pose proof Hacc as H.
  apply (apply_tx_batch_char SO s lh txs s' HK) in H as (rel & fp & tp & _ & _ & _ & E).
  - rewrite E. cbn [batch_post s_coins s_counts]. unfold counts_after.
    destruct (tip_906 s); [apply tip906_transition_counts_ok|exact C].
  - intros T. rewrite T in C. exact C.
Qed.

Lemma batch_coin_at_output_data t i c :
  In t txs -> i < 256 -> s_coins s' !! coin_key (t_hash t) i = Some c ->
  i < N.of_nat (length (t_outputs t)) /\
  cd_covhash (c_data c) = cd_covhash (nth (N.to_nat i) (t_outputs t) dflt_cd) /\
  cd_value (c_data c) = cd_value (nth (N.to_nat i) (t_outputs t) dflt_cd) /\
  cd_denom (c_data c) = fix_denom t (cd_denom (nth (N.to_nat i) (t_outputs t) dflt_cd)).
Proof using Hacc HK Hmold.
  intros Ht Hi Hc.
  destruct (accepted_batch_coins _ _ _ _ _ Hacc) as (relevant & Hrel & Ec).
  pose proof (load_relevant_short s _ _ Hrel) as Hs.
  rewrite Ec in Hc. apply del_all_Some in Hc.
  apply ins_all_Some in Hc as [Hc|[Hc _]]; [|rewrite (hk_fresh _ _ _ HK t i Ht Hi) in Hc; discriminate].
  apply in_flat_map in Hc as (t2 & Ht2 & Hc).
  apply in_tx_inserts in Hc as [(_ & E & _)|(j & o & Hjo & E & Hr)].
  - exfalso. unfold marker_key in E. apply coin_key_inj in E as [E _]; [|exact Hi|lia].
    symmetry in E. exact (hk_marker_tx _ _ _ HK t2 t Ht2 Ht E).
  - pose proof (enumerate_range _ _ _ _ Hjo) as Rj.
    assert (Hlen: N.of_nat (length (t_outputs t2)) <= 256) by (apply Hs; exact Ht2).
    rewrite N.mod_small in E by lia.
    apply coin_key_inj in E as [Eh Ei]; [|exact Hi|lia]. subst j.
    assert (t2 = t) by (eapply hash_inj; [apply (hk_nodup _ _ _ HK)|exact Ht2|exact Ht|congruence]). subst t2.
    split; [lia|].
    pose proof (relevant_at_hash SO s txs relevant t (i, o) HK Hrel Ht Hjo) as Er.
    unfold key_of in Er. cbn [fst snd] in Er. rewrite N.mod_small in Er by exact Hi.
    rewrite Er in Hr.
    destruct (cd_covhash o =? 0); [discriminate|]. injection Hr as <-. cbn [coin_of c_data cd_covhash cd_value cd_denom].
    rewrite (enumerate_nth dflt_cd _ _ _ _ Hjo).
    rewrite N.sub_0_r. auto.
Qed.

Lemma fresh_hash_ne h i c : i < 256 -> s_coins s !! coin_key h i = Some c -> forall t, In t txs -> t_hash t <> h.
Proof. intros Hi Hc t Ht E. pose proof (hk_fresh _ _ _ HK t i Ht Hi) as F. rewrite E, Hc in F. discriminate. Qed.

Lemma batch_filed_coin t i c :
  TxKeyed s -> In t (sorted_txs s') -> i < 256 -> s_coins s' !! coin_key (t_hash t) i = Some c ->
  In t txs \/ (In t (sorted_txs s) /\ s_coins s !! coin_key (t_hash t) i = Some c).
Proof.
  intros K Ht Hi Hc. destruct (batch_filed t Ht) as [Hb|(h & Hold & Hnew)]; [left; exact Hb|right].
  assert (Hts: In t (sorted_txs s)) by (apply in_sorted_txs; eauto).
  split; [exact Hts|]. rewrite <- (K _ _ Hold) in Hnew. rewrite (batch_coin_at SO s lh txs s' Hacc) in Hc.
  - exact (del_all_Some _ _ _ _ Hc).
  - exact Hi.
  - intros t2 Ht2 E. apply Hnew. rewrite <- E. apply in_map. exact Ht2.
  - intros t2 Ht2 _ E. exact (Hmold t2 t Ht2 Hts E).
Qed.

Lemma batch_outcov : TxKeyed s -> OutCov s -> OutCov s'.
Proof.
  intros K O t Ht. split; intros c Hc.
  - destruct (batch_filed_coin t 0 c K Ht ltac:(lia) Hc) as [Hb|[Hts Hc0]]; [|exact (proj1 (O t Hts) c Hc0)].
    apply (batch_coin_at_output_data t 0 c Hb ltac:(lia) Hc).
  - destruct (batch_filed_coin t 1 c K Ht ltac:(lia) Hc) as [Hb|[Hts Hc1]]; [|exact (proj2 (O t Hts) c Hc1)].
    destruct (batch_coin_at_output_data t 1 c Hb ltac:(lia) Hc) as (Hl & E & _). unfold cov1.
    destruct (N.eqb_spec (N.of_nat (length (t_outputs t))) 1) as [E1|_]; [lia|exact E].
Qed.

Theorem batch_good : Good s -> Good s'.
Proof.
  intros (K & C & O). split; [apply batch_txkeyed; exact K|]. split; [apply batch_cinv; exact C|].
  apply batch_outcov; assumption.
Qed.
End Batch.

Lemma tip_cond_next s hdr act : tip_condition s act = true -> tip_condition (next_unsealed s hdr) act = true.
Proof.
  destruct (next_unsealed_link s hdr) as (N2 & N1 & _). unfold tip_condition. rewrite N1, N2.
  destruct (act =? U64MAX); [auto|]. destruct (s_network s =? MAINNET); [lia|].
  destruct (s_network s =? TESTNET); [lia|auto].
Qed.

Lemma next_unsealed_no_txs s hdr t : ~ In t (sorted_txs (next_unsealed s hdr)).
Proof.
  intros Ht. apply in_sorted_txs in Ht as (h & Hh).
  destruct (next_unsealed_link s hdr) as (_ & _ & _ & _ & Etx & _). rewrite Etx, lookup_empty in Hh. discriminate.
Qed.

(* sealing rewrites only the first two outputs of the block's pool requests and the reward coin *)
Lemma block_coin_at SO s a hdr s' h i :
  i < 256 -> seal SO s a = Ok s' ->
  (forall t, In t (sorted_txs s) -> is_pool_request t = true -> t_hash t <> h) ->
  so_reward_id SO (s_height s) <> h ->
  s_coins (next_unsealed s' hdr) !! coin_key h i = s_coins s !! coin_key h i.
Proof.
  intros Hi H Hreq Hrw.
  rewrite next_unsealed_coins.
  apply (seal_leaves_other_coins SO s a s' _ H).
  - intros t Ht Hr. pose proof (Hreq t Ht Hr) as Hne. unfold key0, key1.
    split; intros E; apply coin_key_inj in E as [E _]; lia.
  - intros E. apply coin_key_inj in E as [E _]; lia.
Qed.

Lemma next_unsealed_good s hdr : CInv s -> Good (next_unsealed s hdr).
Proof.
  intros C. split; [|split].
  - intros h t H. destruct (next_unsealed_no_txs s hdr t). apply in_sorted_txs. eauto.
  - unfold CInv in *. pose proof (tip_cond_next s hdr TIP_906_HEIGHT) as Hm. fold (tip_906 s) in Hm.
    fold (tip_906 (next_unsealed s hdr)) in Hm.
    rewrite next_unsealed_counts, next_unsealed_coins. destruct (tip_906 s).
    + rewrite andb_false_r, (Hm eq_refl). exact C.
    + rewrite andb_true_r. destruct (tip_906 (next_unsealed s hdr)); [|exact C].
      rewrite C. apply tip906_transition_counts_ok.
  - intros t Ht. destruct (next_unsealed_no_txs s hdr t Ht).
Qed.

Section History.
Variable SO : stf_oracle.

Inductive hop :=
| HBatch (lh : header) (txs : list tx)            (* apply_tx_batch; a rejected batch leaves the state alone *)
| HBlock (a : option action) (hdr : header).      (* seal, then next_unsealed *)

Definition hstep (s : wstate) (o : hop) : wstate :=
  match o with
  | HBatch lh txs => match apply_tx_batch SO s lh txs with Ok s' => s' | _ => s end
  | HBlock a hdr => match seal SO s a with Ok s' => next_unsealed s' hdr | _ => s end
  end.

Definition reward_fresh (s : wstate) : Prop :=
  s_coins s !! coin_key (so_reward_id SO (s_height s)) 0 = None /\
  forall t, In t (sorted_txs s) -> so_reward_id SO (s_height s) <> t_hash t.
(* the hash-oracle assumptions of one step, in the state it is applied to *)
Definition step_ok (s : wstate) (o : hop) : Prop :=
  match o with
  | HBatch lh txs => HashOK SO s txs /\
      forall t t', In t txs -> In t' (sorted_txs s) -> so_faucet_marker SO (t_hash t) <> t_hash t'
  | HBlock a hdr => a <> None -> reward_fresh s
  end.
Fixpoint hist_all (ok : wstate -> hop -> Prop) (s : wstate) (ops : list hop) : Prop :=
  match ops with [] => True | o :: r => ok s o /\ hist_all ok (hstep s o) r end.
Definition hist_ok := hist_all step_ok.

Lemma hist_all_impl (I : wstate -> Prop) (ok1 ok2 : wstate -> hop -> Prop) :
  (forall s o, I s -> ok1 s o -> I (hstep s o)) ->
  (forall s o, I s -> ok1 s o -> ok2 s o) ->
  forall ops s, I s -> hist_all ok1 s ops -> hist_all ok2 s ops /\ I (fold_left hstep ops s).
Proof.
  intros Hstep Himp. induction ops as [|o r IH]; intros s Hi H; cbn [fold_left hist_all] in *; [auto|].
  destruct H as [H1 H2]. destruct (IH (hstep s o) (Hstep s o Hi H1) H2) as [A B]. auto.
Qed.

Lemma history_invariant (I : wstate -> Prop) (ok : wstate -> hop -> Prop) :
  (forall s o, I s -> ok s o -> I (hstep s o)) ->
  forall ops s, I s -> hist_all ok s ops -> I (fold_left hstep ops s).
Proof. intros Hstep ops s Hi H. exact (proj2 (hist_all_impl I ok ok Hstep (fun _ _ _ H1 => H1) ops s Hi H)). Qed.

Lemma hist_all_mono (ok1 ok2 : wstate -> hop -> Prop) :
  (forall s o, ok1 s o -> ok2 s o) -> forall ops s, hist_all ok1 s ops -> hist_all ok2 s ops.
Proof.
  intros Himp ops s H.
  exact (proj1 (hist_all_impl (fun _ => True) ok1 ok2 (fun _ _ _ _ => Logic.I) (fun s o _ => Himp s o) ops s Logic.I H)).
Qed.

Lemma hist_all_and ok1 ok2 : forall ops s,
  hist_all ok1 s ops -> hist_all ok2 s ops -> hist_all (fun s o => ok1 s o /\ ok2 s o) s ops.
Proof.
  induction ops as [|o r IH]; intros s H1 H2; cbn [hist_all] in *; [exact I|].
  destruct H1 as [A1 B1], H2 as [A2 B2]. split; [split; assumption|apply IH; assumption].
Qed.

Lemma hist_all_app ok : forall l1 l2 s,
  hist_all ok s (l1 ++ l2) <-> hist_all ok s l1 /\ hist_all ok (fold_left hstep l1 s) l2.
Proof.
  induction l1 as [|o l1 IH]; intros l2 s; cbn [app hist_all fold_left]; [tauto|]. rewrite IH. tauto.
Qed.

Lemma hist_all_trivial (ok : wstate -> hop -> Prop) : (forall s o, ok s o) -> forall ops s, hist_all ok s ops.
Proof. intros Hok. induction ops as [|o r IH]; intros s; cbn [hist_all]; auto. Qed.

Lemma hstep_cases (I : wstate -> Prop) (ok : wstate -> hop -> Prop) :
  (forall s lh txs s', I s -> ok s (HBatch lh txs) -> apply_tx_batch SO s lh txs = Ok s' -> I s') ->
  (forall s a hdr s', I s -> ok s (HBlock a hdr) -> seal SO s a = Ok s' -> I (next_unsealed s' hdr)) ->
  forall s o, I s -> ok s o -> I (hstep s o).
Proof.
  intros Hbatch Hblock s o Hi Hok. destruct o as [lh txs|a hdr]; cbn [hstep].
  - destruct (apply_tx_batch SO s lh txs) as [s'| |] eqn:E; [exact (Hbatch s lh txs s' Hi Hok E)|exact Hi|exact Hi].
  - destruct (seal SO s a) as [s'| |] eqn:E; [exact (Hblock s a hdr s' Hi Hok E)|exact Hi|exact Hi].
Qed.

Lemma history_invariant_cases (I : wstate -> Prop) (ok : wstate -> hop -> Prop) :
  (forall s lh txs s', I s -> ok s (HBatch lh txs) -> apply_tx_batch SO s lh txs = Ok s' -> I s') ->
  (forall s a hdr s', I s -> ok s (HBlock a hdr) -> seal SO s a = Ok s' -> I (next_unsealed s' hdr)) ->
  forall ops s, I s -> hist_all ok s ops -> I (fold_left hstep ops s).
Proof. intros Hbatch Hblock. exact (history_invariant I ok (hstep_cases I ok Hbatch Hblock)). Qed.

Lemma hstep_good s o : Good s -> step_ok s o -> Good (hstep s o).
Proof.
  revert s o. apply hstep_cases.
  - intros s lh txs s' G [HK Hm] E. exact (batch_good SO s lh txs s' E HK Hm G).
  - intros s a hdr s' G Hr E. apply next_unsealed_good. exact (proj1 (seal_counts SO s a s' G E Hr)).
Qed.

Theorem history_good : forall ops s, Good s -> hist_ok s ops -> Good (fold_left hstep ops s).
Proof. exact (history_invariant Good step_ok hstep_good). Qed.

(* C20 for every reachable unsealed state *)
Corollary history_counts ops s h :
  Good s -> hist_ok s ops -> tip_906 (fold_left hstep ops s) = true ->
  coin_count (s_counts (fold_left hstep ops s)) h = count_of h (s_coins (fold_left hstep ops s)) /\
  (count_of h (s_coins (fold_left hstep ops s)) = 0 -> s_counts (fold_left hstep ops s) !! h = None).
Proof.
  intros G H T. destruct (history_good ops s G H) as (_ & C & _). unfold CInv in C. rewrite T in C.
  split; [apply (CountsOk_coin_count _ h C)|apply (counts_no_entry_without_coins _ h C)].
Qed.

(* C20 for every reachable sealed state *)
Corollary history_sealed_counts ops s a sealed h :
  Good s -> hist_ok s ops -> seal SO (fold_left hstep ops s) a = Ok sealed ->
  (a <> None -> reward_fresh (fold_left hstep ops s)) -> tip_906 sealed = true ->
  coin_count (s_counts sealed) h = count_of h (s_coins sealed).
Proof.
  intros G H Hs Hr T. pose proof (history_good ops s G H) as Gf.
  destruct (seal_counts SO _ _ _ Gf Hs Hr) as [C _]. unfold CInv in C. rewrite T in C.
  apply (CountsOk_coin_count _ h C).
Qed.

Corollary history_no_counts_before_activation ops s :
  Good s -> hist_ok s ops -> tip_906 (fold_left hstep ops s) = false -> s_counts (fold_left hstep ops s) = ∅.
Proof.
  intros G H T. destruct (history_good ops s G H) as (_ & C & _). unfold CInv in C. rewrite T in C. exact C.
Qed.
End History.

(* the genesis state (GenesisConfig::realize): one coin, inserted with the rule of the network *)
Definition genesis (net : N) (c : cdh) (fee_pool mult : N) (stakes : gmap N stakedoc) : wstate :=
  let s0 := {| s_network := net; s_height := 0; s_history := ∅; s_coins := ∅; s_counts := ∅; s_txs := ∅;
               s_fee_pool := fee_pool; s_fee_mult := mult; s_tips := 0; s_dosc_speed := MICRO;
               s_pools := ∅; s_stakes := stakes |} in
  let cn := insert_coin (tip_906 s0) (coin_key 0 0) c (∅, ∅) in set_coins s0 (fst cn) (snd cn).

Lemma genesis_good net c fp m st : Good (genesis net c fp m st).
Proof.
  split; [intros h t H; cbn in H; rewrite lookup_empty in H; discriminate|]. split.
  - unfold CInv, genesis. cbn zeta.
    match goal with |- context [insert_coin (tip_906 ?x)] => set (s0 := x) end.
    assert (T: tip_906 (set_coins s0 (fst (insert_coin (tip_906 s0) (coin_key 0 0) c (∅, ∅)))
                                     (snd (insert_coin (tip_906 s0) (coin_key 0 0) c (∅, ∅)))) = tip_906 s0) by reflexivity.
    rewrite T. cbn [s_coins s_counts set_coins]. destruct (tip_906 s0).
    + rewrite <- surjective_pairing. apply genesis_counts_ok.
    + reflexivity.
  - intros t Ht. apply in_sorted_txs in Ht as (h & Hh). cbn in Hh. rewrite lookup_empty in Hh. discriminate.
Qed.

(* the definitions, spelled out for the property files *)
Lemma good_def s :
  Good s <->
  (forall h t, s_txs s !! h = Some t -> t_hash t = h) /\
  (if tip_906 s then CountsOk (s_coins s, s_counts s) else s_counts s = ∅) /\
  (forall t, In t (sorted_txs s) ->
     (forall c, s_coins s !! coin_key (t_hash t) 0 = Some c -> cd_covhash (c_data c) = cd_covhash (out0 t)) /\
     (forall c, s_coins s !! coin_key (t_hash t) 1 = Some c ->
        cd_covhash (c_data c) = if N.of_nat (length (t_outputs t)) =? 1 then cd_covhash (out0 t) else cd_covhash (out1 t))).
Proof. reflexivity. Qed.

Lemma hstep_def SO s o :
  hstep SO s o =
  match o with
  | HBatch lh txs => match apply_tx_batch SO s lh txs with Ok s' => s' | _ => s end
  | HBlock a hdr => match seal SO s a with Ok s' => next_unsealed s' hdr | _ => s end
  end.
Proof. reflexivity. Qed.

Lemma hist_all_def SO ok s ops :
  hist_all SO ok s ops <-> match ops with [] => True | o :: r => ok s o /\ hist_all SO ok (hstep SO s o) r end.
Proof. destruct ops; reflexivity. Qed.

Lemma hist_ok_def SO s ops :
  hist_ok SO s ops <->
  match ops with
  | [] => True
  | o :: r =>
    match o with
    | HBatch lh txs => HashOK SO s txs /\
        forall t t', In t txs -> In t' (sorted_txs s) -> so_faucet_marker SO (t_hash t) <> t_hash t'
    | HBlock a hdr => a <> None ->
        s_coins s !! coin_key (so_reward_id SO (s_height s)) 0 = None /\
        forall t, In t (sorted_txs s) -> so_reward_id SO (s_height s) <> t_hash t
    end /\ hist_ok SO (hstep SO s o) r
  end.
Proof. destruct ops as [|o r]; [reflexivity|]. destruct o; reflexivity. Qed.
