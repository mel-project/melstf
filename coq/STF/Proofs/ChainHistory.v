(* C07 over whole histories: in every state reachable by batches and block boundaries (each boundary storing the
   real header of the block just sealed), the history holds one header for every lower height, each with its own
   height and the chain's network, and each (above height 0) carrying the hash of the header one below: the headers
   chain together down to the first block. *)
From MelVerif Require Import STF.Proofs.Tactics STF.Proofs.Frame STF.Proofs.Stakes STF.Proofs.Block.
From Coq Require Import ZifyN ZifyNat ZifyBool.
Open Scope N_scope.

Section Chain.
Variable SO : stf_oracle.
Variable rf : wstate -> roots.          (* the five Merkle roots as a function of the state *)

Inductive cop :=
| CBatch (lh : header) (txs : list tx)
| CBlock (a : option action).

Definition cstep (s : wstate) (o : cop) : wstate :=
  match o with
  | CBatch lh txs => match apply_tx_batch SO s lh txs with Ok s' => s' | _ => s end
  | CBlock a =>
    match seal SO s a with
    | Ok s' => match header_of SO (rf s') s' with Ok h => next_unsealed s' h | _ => s end
    | _ => s
    end
  end.

Definition Chain (s : wstate) : Prop :=
  (forall h, h < s_height s -> is_Some (s_history s !! h)) /\
  (forall h hd, s_history s !! h = Some hd ->
     h < s_height s /\ h_height hd = h /\ h_network hd = s_network s /\
     (h = 0 -> h_previous hd = 0) /\
     (forall p, h <> 0 -> s_history s !! (h - 1) = Some p -> h_previous hd = so_header_hash SO p)).

Lemma chain_same a b : s_history b = s_history a -> s_height b = s_height a -> s_network b = s_network a -> Chain a -> Chain b.
Proof. intros E1 E2 E3 [F C]. unfold Chain. rewrite E1, E2, E3. split; assumption. Qed.

Lemma chain_push s R hd : Chain s -> header_of SO R s = Ok hd -> Chain (next_unsealed s hd).
Proof.
  intros [F C] Hh.
  destruct (header_of_fields SO R s hd Hh) as (Enet & Eheight & _).
  destruct (next_unsealed_link s hd) as (Nheight & Nnet & Ntop & Nbelow & _).
  split.
  - intros h Hlt. rewrite Nheight in Hlt. destruct (N.eq_dec h (s_height s)) as [->|Hne]; [rewrite Ntop; eauto|].
    rewrite (Nbelow h Hne). apply F. lia.
  - intros h hd0 Hl. rewrite Nheight, Nnet.
    destruct (N.eq_dec h (s_height s)) as [->|Hne].
    + (* the new entry *)
      rewrite Ntop in Hl. injection Hl as <-.
      repeat split; [lia|exact Eheight|exact Enet|apply (header_of_fields SO R s hd Hh)|].
      intros p Hnz Hp. rewrite (Nbelow (s_height s - 1)) in Hp by lia. exact (header_of_previous SO R s hd p Hh Hp Hnz).
    + (* an older entry, and the one below it, are untouched *)
      rewrite (Nbelow h Hne) in Hl. destruct (C h hd0 Hl) as (C1 & C2 & C3 & C4 & C5).
      repeat split; [lia|exact C2|exact C3|exact C4|].
      intros p Hnz Hp. rewrite (Nbelow (h - 1)) in Hp by lia. apply C5; assumption.
Qed.

Lemma cstep_chain s o : Chain s -> Chain (cstep s o).
Proof.
  intros Hc. destruct o as [lh txs|a]; cbn [cstep].
  - destruct (apply_tx_batch SO s lh txs) as [s'| |] eqn:E; [|exact Hc|exact Hc].
    destruct (apply_tx_batch_frame SO s lh txs s' E) as (E1 & E2 & E3 & _). eapply chain_same; eauto.
  - destruct (seal SO s a) as [s'| |] eqn:E; [|exact Hc|exact Hc].
    destruct (header_of SO (rf s') s') as [hd| |] eqn:Eh; [|exact Hc|exact Hc].
    destruct (seal_frame SO s a s' E) as (N1 & N2 & N3 & _).
    apply (chain_push s' (rf s') hd); [eapply chain_same; eauto|exact Eh].
Qed.

Theorem chain_history : forall ops s, Chain s -> Chain (fold_left cstep ops s).
Proof.
  induction ops as [|o r IH]; intros s Hc; cbn [fold_left]; [exact Hc|]. apply IH, cstep_chain. exact Hc.
Qed.

Lemma genesis_chain s : s_height s = 0 -> s_history s = ∅ -> Chain s.
Proof.
  intros E0 Eh. split.
  - intros h Hh. lia.
  - intros h hd Hl. rewrite Eh, lookup_empty in Hl. discriminate.
Qed.

Corollary reachable_headers_link ops s h hd p :
  Chain s -> let f := fold_left cstep ops s in
  s_history f !! (h + 1) = Some hd -> s_history f !! h = Some p ->
  h_previous hd = so_header_hash SO p /\ h_height hd = h_height p + 1 /\ h_network hd = h_network p.
Proof.
  intros Hc f Hd Hp. destruct (chain_history ops s Hc) as [_ C]. fold f in C.
  destruct (C _ _ Hd) as (_ & D2 & D3 & _ & D5). destruct (C _ _ Hp) as (_ & P2 & P3 & _).
  split; [apply D5; [lia|]; replace (h + 1 - 1) with h by lia; exact Hp|]. split; [lia|congruence].
Qed.

(* the definitions, spelled out for the property files *)
Lemma chain_def s :
  Chain s <->
  (forall h, h < s_height s -> is_Some (s_history s !! h)) /\
  (forall h hd, s_history s !! h = Some hd ->
     h < s_height s /\ h_height hd = h /\ h_network hd = s_network s /\
     (h = 0 -> h_previous hd = 0) /\
     (forall p, h <> 0 -> s_history s !! (h - 1) = Some p -> h_previous hd = so_header_hash SO p)).
Proof. reflexivity. Qed.
Lemma cstep_def s o :
  cstep s o =
  match o with
  | CBatch lh txs => match apply_tx_batch SO s lh txs with Ok s' => s' | _ => s end
  | CBlock a =>
    match seal SO s a with
    | Ok s' => match header_of SO (rf s') s' with Ok h => next_unsealed s' h | _ => s end
    | _ => s
    end
  end.
Proof. reflexivity. Qed.
End Chain.
