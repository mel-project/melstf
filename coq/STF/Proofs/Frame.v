(* What sealing does NOT touch: network, height, history, transaction set, DOSC speed, stakes; up to the proposer
   action also fee multiplier and tips (and, outside TIP-909 and the action, the fee pool); and, while one pool
   settles its requests, every other pool and every coin that is not one of their first two outputs. *)
From MelVerif Require Import STF.Proofs.Tactics STF.Proofs.Faucet STF.Proofs.SealSteps.
Open Scope N_scope.

Definition frame (s : wstate) :=
  (s_network s, s_height s, s_history s, s_txs s, s_fee_mult s, s_tips s, s_dosc_speed s, s_stakes s).
(* with the fee pool, which only TIP-909 and the proposer action move *)
Definition frame_fp (s : wstate) := (frame s, s_fee_pool s).

Lemma frame_fp_frame a b : frame_fp a = frame_fp b -> frame a = frame b.
Proof. unfold frame_fp. congruence. Qed.
Lemma frame_fp_txs a b : frame_fp a = frame_fp b -> s_txs a = s_txs b.
Proof. unfold frame_fp, frame. congruence. Qed.

Lemma tip_cond_frame a b act : frame a = frame b -> tip_condition a act = tip_condition b act.
Proof. unfold frame, tip_condition. intros H. injection H as -> -> _ _ _ _ _ _. reflexivity. Qed.

Lemma txs_same a b : s_txs a = s_txs b -> sorted_txs a = sorted_txs b.
Proof. unfold sorted_txs. intros ->. reflexivity. Qed.

Lemma ins_by_key_perm {A} k (v : A) : forall l, Permutation (ins_by_key k v l) ((k, v) :: l).
Proof.
  induction l as [|[k' v'] l IH]; cbn [ins_by_key]; [reflexivity|].
  destruct (k <=? k'); [reflexivity|]. rewrite IH. apply perm_swap.
Qed.
Lemma sort_by_key_perm {A} : forall l : list (N * A), Permutation (sort_by_key l) l.
Proof.
  induction l as [|[k v] l IH]; cbn [sort_by_key fold_right]; [reflexivity|].
  cbn [fst snd]. rewrite ins_by_key_perm. constructor. exact IH.
Qed.
Lemma in_sorted_txs s t : In t (sorted_txs s) <-> exists h, s_txs s !! h = Some t.
Proof.
  unfold sorted_txs. rewrite in_map_iff. split.
  - intros ([h t'] & E & Hin). cbn [snd] in E. subst t'. exists h.
    apply elem_of_map_to_list. apply elem_of_list_In.
    eapply Permutation_in; [apply sort_by_key_perm|exact Hin].
  - intros (h & Hh). exists (h, t). split; [reflexivity|].
    eapply Permutation_in; [symmetry; apply sort_by_key_perm|].
    apply elem_of_list_In, elem_of_map_to_list. exact Hh.
Qed.

Lemma frame_fp_facts a b :
  frame_fp a = frame_fp b ->
  sorted_txs a = sorted_txs b /\ s_network a = s_network b /\ s_height a = s_height b /\
  s_fee_pool a = s_fee_pool b /\ s_tips a = s_tips b /\ forall h, tip_condition a h = tip_condition b h.
Proof.
  intros F. pose proof (fun h => tip_cond_frame a b h (frame_fp_frame a b F)) as T.
  unfold frame_fp, frame in F. injection F as En Eh _ Et _ Etips _ _ Ef. repeat split; try assumption. apply txs_same. exact Et.
Qed.

Lemma legacy_frame a b : frame_fp a = frame_fp b ->
  legacy_net a && (s_height a <? 978392) = legacy_net b && (s_height b <? 978392).
Proof. intros F. destruct (frame_fp_facts a b F) as (_ & En & Eh & _). unfold legacy_net. rewrite En, Eh. reflexivity. Qed.

Lemma coins_put_coin_eq s k c : s_coins (put_coin s k c) = <[k := c]> (s_coins s).
Proof. unfold put_coin. cbn [s_coins set_coins]. apply insert_coin_fst. Qed.
Lemma del_coin_inv s k s' : del_coin s k = Ok s' -> exists counts, s' = set_coins s (delete k (s_coins s)) counts.
Proof.
  unfold del_coin. intros H. inv_bind H as cn Hcn. injection H as <-.
  apply remove_coin_fst in Hcn. rewrite Hcn. eauto.
Qed.

Lemma txs_for_pool_sub reqs k t : In t (txs_for_pool reqs k) -> In t reqs.
Proof. unfold txs_for_pool. intros H. apply filter_In in H. tauto. Qed.

Definition untouched_by (l : list tx) (key : N) : Prop :=
  forall t, In t l -> key <> coin_key (t_hash t) 0 /\ key <> coin_key (t_hash t) 1.

Definition rewrites (l : list tx) (s s' : wstate) : Prop :=
  frame_fp s' = frame_fp s /\ s_pools s' = s_pools s /\
  (forall key, untouched_by l key -> s_coins s' !! key = s_coins s !! key).

Lemma rewrites_refl l s : rewrites l s s.
Proof. repeat split. Qed.

Lemma rewrites_trans l s1 s2 s3 : rewrites l s1 s2 -> rewrites l s2 s3 -> rewrites l s1 s3.
Proof.
  intros (F1 & P1 & C1) (F2 & P2 & C2). split; [congruence|]. split; [congruence|].
  intros x Hx. rewrite C2, C1; auto.
Qed.

(* the shape of the loops: serve the head, then the rest *)
Lemma rewrites_cons t l s1 s2 s3 : rewrites (t :: l) s1 s2 -> rewrites l s2 s3 -> rewrites (t :: l) s1 s3.
Proof.
  intros H1 (F & P & C). apply (rewrites_trans _ _ _ _ H1). split; [exact F|]. split; [exact P|].
  intros key U. apply C. intros t' Ht'. apply U. right. exact Ht'.
Qed.

Lemma rewrites_put_coin l s t i c :
  In t l -> i = 0 \/ i = 1 -> rewrites l s (put_coin s (coin_key (t_hash t) i) c).
Proof.
  intros Ht Hi. split; [reflexivity|]. split; [reflexivity|]. intros key U.
  rewrite coins_put_coin_eq. apply lookup_insert_ne. destruct (U t Ht), Hi; congruence.
Qed.

Lemma rewrites_del_coin l s t i s' :
  In t l -> i = 0 \/ i = 1 -> del_coin s (coin_key (t_hash t) i) = Ok s' -> rewrites l s s'.
Proof.
  intros Ht Hi [counts ->]%del_coin_inv. split; [reflexivity|]. split; [reflexivity|]. intros key U.
  apply lookup_delete_ne. destruct (U t Ht), Hi; congruence.
Qed.

Lemma swaps_go_rewrites k lw rw tl tr : forall l s, rewrites l s (swaps_go k lw rw tl tr l s).
Proof.
  induction l as [|t rest IH]; intros s; cbn [swaps_go]; [apply rewrites_refl|].
  eapply rewrites_cons; [|apply IH]. apply rewrites_put_coin; [apply in_eq|left; reflexivity].
Qed.

Lemma withdrawals_go_rewrites k tl tr total : forall l s, rewrites l s (withdrawals_go k tl tr total l s).
Proof.
  induction l as [|t rest IH]; intros s; cbn [withdrawals_go]; [apply rewrites_refl|].
  eapply rewrites_cons; [|apply IH].
  eapply rewrites_trans; apply rewrites_put_coin; auto using in_eq.
Qed.

Lemma deposits_go_rewrites SO k tl tm : forall l left s s',
  deposits_go SO k tl tm l left s = Ok s' -> rewrites l s s'.
Proof.
  induction l as [|t rest IH]; intros left s s' H; cbn [deposits_go] in H.
  - injection H as <-. apply rewrites_refl.
  - inv_bind H as s2 H2. eapply rewrites_cons; [|eapply IH, H].
    destruct (legacy_net s && (s_height s <? 978392)).
    + injection H2 as <-. apply rewrites_put_coin; [apply in_eq|left; reflexivity].
    + eapply rewrites_trans; [|eapply rewrites_del_coin; [apply in_eq|right; reflexivity|exact H2]].
      apply rewrites_put_coin; [apply in_eq|left; reflexivity].
Qed.

Definition touches (k : denom * denom) (l : list tx) (s s' : wstate) : Prop :=
  frame_fp s' = frame_fp s /\
  (forall k2, poolkey_code k2 <> poolkey_code k -> get_pool s' k2 = get_pool s k2) /\
  (forall key, untouched_by l key -> s_coins s' !! key = s_coins s !! key).

Lemma touches_refl k l s : touches k l s s.
Proof. repeat split. Qed.

(* a turn is one write to pool k and one run of a request loop, in either order *)
Lemma touches_put k l s p s' :
  frame_fp s' = frame_fp s -> s_pools s' = <[poolkey_code k := p]> (s_pools s) ->
  (forall key, untouched_by l key -> s_coins s' !! key = s_coins s !! key) ->
  touches k l s s' /\ get_pool s' k = Some p.
Proof.
  intros F Ep Ec. unfold touches, get_pool. rewrite Ep, lookup_insert. repeat split; [exact F| |exact Ec].
  intros k2 Hne. apply lookup_insert_ne. congruence.
Qed.

Lemma swaps_single_pool_turn k s l s' :
  swaps_single_pool k s l = Ok s' ->
  exists p p' lw rw, get_pool s k = Some p /\
    swap_many p (swap_total (fst k) l) (swap_total (snd k) l) = Ok (p', lw, rw) /\
    touches k l s s' /\ get_pool s' k = Some p'.
Proof.
  intros (p & p' & lw & rw & Ep & Hr & ->)%swaps_single_pool_inv. exists p, p', lw, rw. split; [exact Ep|]. split; [exact Hr|].
  destruct (swaps_go_rewrites k lw rw (swap_total (fst k) l) (swap_total (snd k) l) l s) as (F & P & C).
  apply touches_put; [exact F|cbn [s_pools put_pool set_pools]; rewrite P; reflexivity|exact C].
Qed.

Lemma deposits_single_pool_turn SO k s l s' :
  deposits_single_pool SO k s l = Ok s' ->
  exists p' m, pool_deposit (match get_pool s k with Some p => p | None => new_empty_pool end)
                 (sat_sum (map (fun t => cd_value (out0 t)) l)) (sat_sum (map (fun t => cd_value (out1 t)) l)) = Ok (p', m) /\
    touches k l s s' /\ get_pool s' k = Some p'.
Proof.
  intros (p' & m & Hpl & (F & P & C)%deposits_go_rewrites)%deposits_single_pool_inv.
  exists p', m. split; [exact Hpl|]. apply touches_put; assumption.
Qed.

Lemma withdrawals_single_pool_turn k s l s' :
  withdrawals_single_pool k s l = Ok s' ->
  exists p, get_pool s k = Some p /\ touches k l s s' /\
    (s' = s \/ exists p' a b, pool_withdraw p (sat_sum (map (fun t => cd_value (out0 t)) l)) = Ok (p', a, b) /\
                get_pool s' k = Some p').
Proof.
  intros (p & Ep & H)%withdrawals_single_pool_inv. exists p. split; [exact Ep|].
  destruct (_ || _); [subst s'; split; [apply touches_refl|left; reflexivity]|].
  destruct H as (p' & a & b & Hw & ->).
  destruct (withdrawals_go_rewrites k a b (sat_sum (map (fun t => cd_value (out0 t)) l)) l (put_pool s k p')) as (F & P & C).
  destruct (touches_put k l s p' _ F P C) as [T E]. split; [exact T|right; eauto].
Qed.

Lemma swaps_single_pool_touches k s l s' : swaps_single_pool k s l = Ok s' -> touches k l s s'.
Proof. intros (_ & _ & _ & _ & _ & _ & T & _)%swaps_single_pool_turn. exact T. Qed.
Lemma deposits_single_pool_touches SO k s l s' : deposits_single_pool SO k s l = Ok s' -> touches k l s s'.
Proof. intros (_ & _ & _ & T & _)%deposits_single_pool_turn. exact T. Qed.
Lemma withdrawals_single_pool_touches k s l s' : withdrawals_single_pool k s l = Ok s' -> touches k l s s'.
Proof. intros (_ & _ & T & _)%withdrawals_single_pool_turn. exact T. Qed.

Lemma for_pools_touches f reqs :
  (forall k s s', f k s (txs_for_pool reqs k) = Ok s' -> touches k (txs_for_pool reqs k) s s') ->
  forall keys s s', for_pools f reqs keys s = Ok s' ->
    frame_fp s' = frame_fp s /\ forall key, untouched_by reqs key -> s_coins s' !! key = s_coins s !! key.
Proof.
  intros Hf keys s s' H.
  refine (for_pools_invariant f reqs (fun _ s1 => frame_fp s1 = frame_fp s /\
            forall key, untouched_by reqs key -> s_coins s1 !! key = s_coins s !! key) _ keys s s' _ H); [|split; reflexivity].
  intros k _ s1 s2 [F C] (F1 & _ & C1)%Hf. split; [congruence|].
  intros key U. rewrite <- (C key U). apply C1. intros t Ht. apply U. eapply txs_for_pool_sub, Ht.
Qed.

Section Melmint.
Variable SO : stf_oracle.

Lemma frame_create_builtins s : frame_fp (create_builtins s) = frame_fp s.
Proof. destruct (create_builtins_set s) as [m ->]. reflexivity. Qed.

Lemma process_swaps_touches s s' : process_swaps s = Ok s' ->
  frame_fp s' = frame_fp s /\
  forall key, untouched_by (List.filter (is_swap_request s) (sorted_txs s)) key -> s_coins s' !! key = s_coins s !! key.
Proof. apply for_pools_touches. intros k s0 s1. apply swaps_single_pool_touches. Qed.
Lemma process_deposits_touches s s' : process_deposits SO s = Ok s' ->
  frame_fp s' = frame_fp s /\
  forall key, untouched_by (List.filter (is_deposit_request s) (sorted_txs s)) key -> s_coins s' !! key = s_coins s !! key.
Proof. apply for_pools_touches. intros k s0 s1. apply deposits_single_pool_touches. Qed.
Lemma process_withdrawals_touches s s' : process_withdrawals SO s = Ok s' ->
  frame_fp s' = frame_fp s /\
  forall key, untouched_by (List.filter (is_withdraw_request SO s) (sorted_txs s)) key -> s_coins s' !! key = s_coins s !! key.
Proof. apply for_pools_touches. intros k s0 s1. apply withdrawals_single_pool_touches. Qed.

Lemma frame_process_swaps s s' : process_swaps s = Ok s' -> frame_fp s' = frame_fp s.
Proof. intros H. apply process_swaps_touches in H. apply H. Qed.
Lemma frame_process_deposits s s' : process_deposits SO s = Ok s' -> frame_fp s' = frame_fp s.
Proof. intros H. apply process_deposits_touches in H. apply H. Qed.
Lemma frame_process_withdrawals s s' : process_withdrawals SO s = Ok s' -> frame_fp s' = frame_fp s.
Proof. intros H. apply process_withdrawals_touches in H. apply H. Qed.

Lemma frame_process_pegging s s' : process_pegging s = Ok s' -> frame_fp s' = frame_fp s.
Proof. intros [m ->]%process_pegging_set. reflexivity. Qed.

Lemma frame_preseal s s' : preseal_melmint SO s = Ok s' -> frame_fp s' = frame_fp s.
Proof.
  intros (s2 & s3 & s4 & H2 & H3 & H4 & H5)%preseal_inv.
  rewrite (frame_process_pegging _ _ H5), (frame_process_withdrawals _ _ H4),
          (frame_process_deposits _ _ H3), (frame_process_swaps _ _ H2).
  apply frame_create_builtins.
Qed.

Lemma frame_tip909 s s' : apply_tip_909 s = Ok s' -> frame s' = frame s.
Proof. intros (m & fp & ->)%apply_tip_909_set. reflexivity. Qed.

Lemma frame_before_action s s1 s2 :
  preseal_melmint SO s = Ok s1 -> (if tip_909 s1 then apply_tip_909 s1 else Ok s1) = Ok s2 -> frame s2 = frame s.
Proof.
  intros H1%frame_preseal%frame_fp_frame H2.
  destruct (tip_909 s1); [apply frame_tip909 in H2; congruence|injection H2 as <-; exact H1].
Qed.

Theorem seal_frame s a s' :
  seal SO s a = Ok s' ->
  s_network s' = s_network s /\ s_height s' = s_height s /\ s_history s' = s_history s /\
  s_txs s' = s_txs s /\ s_dosc_speed s' = s_dosc_speed s /\ s_stakes s' = s_stakes s /\
  s_fee_mult s' = match a with
                  | None => s_fee_mult s
                  | Some act => move_fee_multiplier (tip_901 s) (s_fee_mult s) (a_delta act)
                  end /\
  s_tips s' = match a with None => s_tips s | Some _ => 0 end.
Proof.
  intros (s1 & s2 & H1 & _ & H2 & H)%seal_inv. pose proof (frame_before_action _ _ _ H1 H2) as F2.
  assert (T: tip_901 s2 = tip_901 s) by (apply tip_cond_frame; exact F2).
  unfold frame in F2. injection F2 as E1 E2 E3 E4 E5 E6 E7 E8.
  destruct a as [act|].
  - unfold collect_proposer_fee in H. inv_bind H as v Hv. injection H as <-.
    unfold put_coin. cbn [s_network s_height s_history s_txs s_dosc_speed s_stakes s_fee_mult s_tips set_coins set_fees set_mult].
    rewrite T, E1, E2, E3, E4, E5, E7, E8. tauto.
  - subst s'. rewrite E1, E2, E3, E4, E5, E6, E7, E8. tauto.
Qed.
Corollary seal_fee_mult s a s' : seal SO s a = Ok s' ->
  s_fee_mult s' = match a with
                  | None => s_fee_mult s
                  | Some act => move_fee_multiplier (tip_901 s) (s_fee_mult s) (a_delta act)
                  end.
Proof. intros H. apply seal_frame in H. tauto. Qed.
Corollary seal_stakes s a s' : seal SO s a = Ok s' -> s_stakes s' = s_stakes s.
Proof. intros H. apply seal_frame in H. tauto. Qed.
Corollary seal_speed s a s' : seal SO s a = Ok s' -> s_dosc_speed s' = s_dosc_speed s.
Proof. intros H. apply seal_frame in H. tauto. Qed.
Corollary seal_action_clears_tips s act s' : seal SO s (Some act) = Ok s' -> s_tips s' = 0.
Proof. intros H. apply seal_frame in H. tauto. Qed.
Corollary seal_none_keeps_tips s s' : seal SO s None = Ok s' -> s_tips s' = s_tips s.
Proof. intros H. apply seal_frame in H. tauto. Qed.
End Melmint.
