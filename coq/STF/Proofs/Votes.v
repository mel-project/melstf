(* C13 / C14: voting power is a partition of the active stake: a key's votes never exceed the total, and the votes
   of pairwise different keys - which is what a consensus proof (a map keyed by public key) presents - add up to at
   most the total.  So "more than two thirds" really is a majority of the whole active stake. *)
From MelVerif Require Import STF.Model STF.Proofs.Confirm.
From stdpp Require Import gmap.
From Coq Require Import ZifyN ZifyNat ZifyBool.
Open Scope N_scope.

Definition vstep (P : N -> bool) (epoch : N) : N -> stakedoc -> N -> N :=
  fun _ d acc => if active epoch d && P (sd_pubkey d) then acc + sd_staked d else acc.
Definition votes_of (P : N -> bool) (st : gmap N stakedoc) (epoch : N) : N := map_fold (vstep P epoch) 0 st.

Lemma vstep_comm (P : N -> bool) epoch (j1 j2 : N) (z1 z2 : stakedoc) (y : N) :
  vstep P epoch j1 z1 (vstep P epoch j2 z2 y) = vstep P epoch j2 z2 (vstep P epoch j1 z1 y).
Proof. unfold vstep. destruct (_ && _); destruct (_ && _); lia. Qed.

Lemma votes_of_insert P epoch k d m : m !! k = None ->
  votes_of P (<[k := d]> m) epoch = vstep P epoch k d (votes_of P m epoch).
Proof. intros Hk. unfold votes_of. apply map_fold_insert_L; [intros; apply vstep_comm|exact Hk]. Qed.
Lemma votes_of_empty P epoch : votes_of P ∅ epoch = 0.
Proof. apply map_fold_empty. Qed.

Lemma votes_is_votes_of st epoch k : votes st epoch k = votes_of (fun pk => pk =? k) st epoch.
Proof. reflexivity. Qed.

Lemma votes_of_le (P Q : N -> bool) st epoch : (forall k, P k = true -> Q k = true) -> votes_of P st epoch <= votes_of Q st epoch.
Proof.
  intros HPQ. induction st as [|k d m Hk IH] using map_ind; [rewrite !votes_of_empty; lia|].
  rewrite !votes_of_insert by exact Hk. unfold vstep. destruct (active epoch d); cbn [andb]; [|exact IH].
  destruct (P (sd_pubkey d)) eqn:E; [rewrite (HPQ _ E); lia|destruct (Q (sd_pubkey d)); lia].
Qed.

Lemma total_votes_of st epoch : total_votes st epoch = votes_of (fun _ => true) st epoch.
Proof.
  unfold total_votes.
  induction st as [|k d m Hk IH] using map_ind; [rewrite votes_of_empty; apply map_fold_empty|].
  rewrite votes_of_insert by exact Hk. rewrite map_fold_insert_L; [|intros; destruct (active epoch z1), (active epoch z2); lia|exact Hk].
  rewrite IH. unfold vstep. rewrite andb_true_r. reflexivity.
Qed.

Theorem votes_le_total st epoch k : votes st epoch k <= total_votes st epoch.
Proof. rewrite votes_is_votes_of, total_votes_of. apply votes_of_le. reflexivity. Qed.

Lemma votes_of_add (P Q : N -> bool) st epoch : (forall k, P k = true -> Q k = true -> False) ->
  votes_of (fun k => P k || Q k) st epoch = votes_of P st epoch + votes_of Q st epoch.
Proof.
  intros Hdis. induction st as [|k d m Hk IH] using map_ind; [rewrite !votes_of_empty; reflexivity|].
  rewrite !votes_of_insert by exact Hk. rewrite IH. unfold vstep.
  destruct (active epoch d); cbn [andb]; [|reflexivity].
  destruct (P (sd_pubkey d)) eqn:EP, (Q (sd_pubkey d)) eqn:EQ; cbn [orb]; try lia. exfalso. eauto.
Qed.

Theorem distinct_keys_votes_le_total_nodup st epoch keys : List.NoDup keys ->
  fold_right (fun k acc => votes st epoch k + acc) 0 keys <= total_votes st epoch.
Proof.
  intros Hnd.
  assert (G: fold_right (fun k acc => votes st epoch k + acc) 0 keys = votes_of (fun pk => existsb (N.eqb pk) keys) st epoch).
  { induction keys as [|k r IH]; cbn [fold_right existsb].
    - induction st as [|j d m Hj IHm] using map_ind; [rewrite votes_of_empty; reflexivity|].
      rewrite votes_of_insert by exact Hj. rewrite <- IHm. unfold vstep. rewrite andb_false_r. reflexivity.
    - inversion Hnd as [|? ? Hni Hnd']; subst. rewrite (IH Hnd'), votes_is_votes_of.
      rewrite <- votes_of_add; [reflexivity|].
      intros pk H1 H2. apply N.eqb_eq in H1. subst pk. apply existsb_exists in H2 as (x & Hx & E). apply N.eqb_eq in E. subst x. exact (Hni Hx). }
  rewrite G, total_votes_of. apply votes_of_le. reflexivity.
Qed.

(* what a consensus proof presents (one entry per key) is at most the total: the two-thirds test compares a part with the whole *)
Theorem present_votes_le_total_nodup s proof :
  List.NoDup (map fst proof) -> present_votes s proof <= total_votes (s_stakes s) (s_height s / STAKE_EPOCH).
Proof.
  intros Hnd. unfold present_votes. rewrite present_fold_keys.
  apply distinct_keys_votes_le_total_nodup. exact Hnd.
Qed.
