(* C19: faucets never on mainnet, and at most once anywhere.  First what insert_coin and remove_coin do to the
   coin map alone, which is all the faucet check reads. *)
From MelVerif Require Import STF.Proofs.Tactics STF.Proofs.MapLemmas STF.Proofs.Stakes STF.Proofs.Fees.
Open Scope N_scope.

Lemma fold_left_keeps {A B} (P : A -> Prop) (f : A -> B -> A) :
  (forall a b, P a -> P (f a b)) -> forall l a, P a -> P (fold_left f l a).
Proof. intros Hf. induction l as [|b l IH]; intros a Ha; cbn [fold_left]; auto. Qed.

Lemma insert_coin_fst tip k c cn : fst (insert_coin tip k c cn) = <[k := c]> (fst cn).
Proof. destruct cn as [coins counts]. unfold insert_coin. destruct (coins !! k); destruct tip; reflexivity. Qed.

Lemma insert_coin_mono tip k c cn k' : is_Some (fst cn !! k') -> is_Some (fst (insert_coin tip k c cn) !! k').
Proof. rewrite insert_coin_fst, lookup_insert_is_Some. destruct (decide (k = k')); auto. Qed.

Lemma remove_coin_fst tip k cn r : remove_coin tip k cn = Ok r -> fst r = delete k (fst cn).
Proof.
  unfold remove_coin. destruct cn as [coins counts].
  destruct tip; [destruct (coins !! k); [destruct (_ =? 0); [discriminate|]|]|];
    intros H; injection H as <-; reflexivity.
Qed.

Lemma remove_coins_fst tip : forall ks cn r, remove_coins tip ks cn = Ok r -> fst r = del_all ks (fst cn).
Proof.
  induction ks as [|k ks IH]; intros cn r H; cbn [remove_coins] in H.
  - injection H as <-. reflexivity.
  - inv_bind H as cn1 H1. rewrite (IH _ _ H), (remove_coin_fst _ _ _ _ H1). reflexivity.
Qed.

Section Faucet.
Variable SO : stf_oracle.
Variable s : wstate.
Variable lh : header.

Definition marker_key (t : tx) : N := coin_key (so_faucet_marker SO (t_hash t)) 0.
Definition is_faucet (t : tx) : bool := txkind_eqb (t_kind t) KFaucet.

(* what handle_faucet_tx demands of a faucet transaction that meets the coin map [coins] *)
Definition faucet_ok_at (coins : gmap N cdh) (t : tx) : Prop :=
  is_faucet t = true -> (s_network s =? MAINNET) && negb (is_bug_tx t) = false /\ coins !! marker_key t = None.
Definition faucet_ok : tx -> Prop := faucet_ok_at (s_coins s).

Lemma handle_faucet_ok tip t cn r :
  handle_faucet SO s tip t cn = Ok r <->
  ((s_network s =? MAINNET) && negb (is_bug_tx t) = false /\ fst cn !! marker_key t = None) /\
  r = if is_bug_tx t then cn else insert_coin tip (marker_key t) marker_coin cn.
Proof.
  unfold handle_faucet. fold (marker_key t).
  destruct (_ && _); [split; [discriminate|intros [[? _] _]; discriminate]|].
  destruct (fst cn !! marker_key t); [split; [discriminate|intros [[_ ?] _]; discriminate]|].
  destruct (is_bug_tx t); (split; [intros H; injection H as <-; auto|intros [_ ->]; reflexivity]).
Qed.

Lemma insert_outputs_spec relevant tip t cn r :
  insert_outputs SO s relevant tip t cn = Ok r ->
  faucet_ok_at (fst cn) t /\
  (forall k, is_Some (fst cn !! k) -> is_Some (fst r !! k)) /\
  (is_faucet t = true -> is_bug_tx t = false -> is_Some (fst r !! marker_key t)).
Proof.
  unfold insert_outputs, faucet_ok_at. fold (is_faucet t). intros H. inv_bind H as cn0 H0. injection H as Er.
  assert (M: forall k, is_Some (fst cn0 !! k) -> is_Some (fst r !! k)).
  { intros k Hk. rewrite <- Er. apply (fold_left_keeps (fun c => is_Some (fst c !! k))); [|exact Hk].
    intros c [i o] Hc. destruct (relevant !! _); [apply insert_coin_mono|]; exact Hc. }
  destruct (is_faucet t).
  - apply handle_faucet_ok in H0 as [Hok ->]. split; [intros _; exact Hok|]. split.
    + intros k Hk. apply M. destruct (is_bug_tx t); [|apply insert_coin_mono]; exact Hk.
    + intros _ Hb. apply M. rewrite Hb, insert_coin_fst, lookup_insert. eauto.
  - injection H0 as <-. split; [discriminate|]. split; [exact M|discriminate].
Qed.

Lemma insert_all_spec relevant tip : forall txs cn r,
  insert_all SO s relevant tip txs cn = Ok r ->
  (forall k, is_Some (fst cn !! k) -> is_Some (fst r !! k)) /\
  forall t, In t txs -> faucet_ok_at (fst cn) t /\
    (is_faucet t = true -> is_bug_tx t = false -> is_Some (fst r !! marker_key t)).
Proof.
  induction txs as [|t0 rest IH]; intros cn r H; cbn [insert_all] in H.
  - injection H as <-. split; [auto|intros t []].
  - inv_bind H as cn1 H1. destruct (insert_outputs_spec _ _ _ _ _ H1) as (Hok0 & M0 & Hm0).
    destruct (IH _ _ H) as (M & Hrest). split; [auto|].
    intros t [<-|Hin]; [split; [exact Hok0|auto]|].
    destruct (Hrest t Hin) as [Hok Hm]. split; [|exact Hm].
    (* two copies of one faucet transaction: the second finds the marker of the first;
       a marker absent after the insertions of [t0] was absent before them *)
    intros Hf. destruct (Hok Hf) as [Hnet Hnone]. split; [exact Hnet|].
    apply eq_None_not_Some. intros Hs. apply M0 in Hs. rewrite Hnone in Hs. exact (is_Some_None Hs).
Qed.

Lemma batch_two_passes txs s' :
  apply_tx_batch SO s lh txs = Ok s' ->
  exists relevant cn, load_relevant_coins s txs = Ok relevant /\
    insert_all SO s relevant (tip_906 s) txs (s_coins s, s_counts s) = Ok cn /\
    remove_coins (tip_906 s) (all_inputs txs) cn = Ok (s_coins s', s_counts s').
Proof.
  intros H. apply apply_tx_batch_ok in H as (rel & n & A & Hn & ->).
  apply create_next_state_ok in Hn as (cn & [c k] & fp & tp & Hins & Hrem & _ & ->).
  exists rel, cn. split; [exact (acc_rel A)|]. split; [exact Hins|exact Hrem].
Qed.

Theorem accepted_faucet_ok txs s' :
  apply_tx_batch SO s lh txs = Ok s' -> forall t, In t txs -> faucet_ok t.
Proof.
  intros H t Ht. destruct (batch_two_passes _ _ H) as (relevant & cn & _ & Hins & _).
  apply (proj2 (insert_all_spec _ _ _ _ _ Hins) t Ht).
Qed.

Theorem faucet_replay_rejected txs t s' :
  In t txs -> t_kind t = KFaucet -> is_Some (s_coins s !! marker_key t) ->
  apply_tx_batch SO s lh txs = Ok s' -> False.
Proof.
  intros Hin Hk Hm H.
  destruct (accepted_faucet_ok _ _ H t Hin (proj2 (txkind_eqb_eq _ _) Hk)) as [_ Hnone].
  rewrite Hnone in Hm. exact (is_Some_None Hm).
Qed.

(* mainnet: no faucet other than the grandfathered hash is ever accepted *)
Theorem mainnet_accepts_no_faucet txs s' :
  s_network s = MAINNET -> apply_tx_batch SO s lh txs = Ok s' ->
  forall t, In t txs -> t_kind t = KFaucet -> t_hash t = BUG_TX_HASH.
Proof.
  intros Hnet H t Hin Hk. apply N.eqb_eq.
  destruct (accepted_faucet_ok _ _ H t Hin (proj2 (txkind_eqb_eq _ _) Hk)) as [Hm _].
  rewrite Hnet, N.eqb_refl in Hm. apply negb_false_iff in Hm. exact Hm.
Qed.

(* the proviso that no transaction of the batch spends the marker: markers are not outputs of any transaction and
   are locked by the covenant hash 0, which no covenant hashes to *)
Theorem accepted_faucet_leaves_marker txs t s' :
  apply_tx_batch SO s lh txs = Ok s' ->
  In t txs -> t_kind t = KFaucet -> is_bug_tx t = false ->
  ~ In (marker_key t) (all_inputs txs) ->
  is_Some (s_coins s' !! marker_key t).
Proof.
  intros H Hin Hk Hb Hns. destruct (batch_two_passes _ _ H) as (relevant & cn & _ & Hins & Hrem).
  apply remove_coins_fst in Hrem. cbn [fst] in Hrem. rewrite Hrem, del_all_notin by exact Hns.
  apply (proj2 (insert_all_spec _ _ _ _ _ Hins) t Hin); [apply txkind_eqb_eq; exact Hk|exact Hb].
Qed.

Theorem unspent_key_survives txs s' k :
  apply_tx_batch SO s lh txs = Ok s' -> ~ In k (all_inputs txs) ->
  is_Some (s_coins s !! k) -> is_Some (s_coins s' !! k).
Proof.
  intros H Hns Hk. destruct (batch_two_passes _ _ H) as (relevant & cn & _ & Hins & Hrem).
  apply remove_coins_fst in Hrem. cbn [fst] in Hrem. rewrite Hrem, del_all_notin by exact Hns.
  apply (proj1 (insert_all_spec _ _ _ _ _ Hins)). exact Hk.
Qed.
End Faucet.
