(* The hash-oracle assumptions under which whole-batch theorems are stated, in one place, and what follows
   from them.  Transaction hashes, coin ids and faucet markers are oracle values in the model; the real
   code relies on the collision resistance of its hash function for exactly these facts. *)
From MelVerif Require Import STF.Proofs.Tactics STF.Proofs.MapLemmas STF.Proofs.Faucet STF.Proofs.Coins.
Open Scope N_scope.

Lemma NoDup_flat_map_inj {A} (f : A -> list N) : forall l x y k,
  NoDup (flat_map f l) -> In x l -> In y l -> In k (f x) -> In k (f y) -> x = y.
Proof.
  induction l as [|a l IH]; intros x y k Hnd Hx Hy Hkx Hky; [contradiction|].
  cbn [flat_map] in Hnd. apply nodup_app in Hnd as (Ha & Hdisj & Hl).
  assert (Hin: forall z, In z l -> In k (f z) -> In k (flat_map f l)) by (intros z Hz Hkz; apply in_flat_map; eauto).
  destruct Hx as [->|Hx], Hy as [->|Hy].
  - reflexivity.
  - destruct (Hdisj k Hkx). eauto.
  - destruct (Hdisj k Hky). eauto.
  - eapply IH; eauto.
Qed.

Lemma NoDup_map_inj {A} (f : A -> N) : forall l x y,
  NoDup (map f l) -> In x l -> In y l -> f x = f y -> x = y.
Proof.
  induction l as [|a l IH]; intros x y Hnd Hx Hy E; [contradiction|].
  cbn [map] in Hnd. inversion Hnd as [|? ? Hna Hnd']; subst.
  destruct Hx as [->|Hx], Hy as [->|Hy].
  - reflexivity.
  - exfalso. apply Hna. rewrite E. apply in_map. exact Hy.
  - exfalso. apply Hna. rewrite <- E. apply in_map. exact Hx.
  - eapply IH; eauto.
Qed.

Lemma NoDup_flat_map_part {A} (f : A -> list N) : forall l x, NoDup (flat_map f l) -> In x l -> NoDup (f x).
Proof.
  induction l as [|a l IH]; intros x Hnd Hx; [contradiction|].
  cbn [flat_map] in Hnd. apply nodup_app in Hnd as (Ha & _ & Hl).
  destruct Hx as [->|Hx]; [exact Ha|]. apply IH; [exact Hl|exact Hx].
Qed.

Lemma map_flat_map {A B C} (g : B -> C) (f : A -> list B) l : map g (flat_map f l) = flat_map (fun x => map g (f x)) l.
Proof. induction l as [|a l IH]; cbn [flat_map map]; [reflexivity|]. rewrite map_app, IH. reflexivity. Qed.

Lemma NoDup_flat_map_by {A} (h : A -> N) (f : A -> list N) : forall l,
  NoDup (map h l) -> (forall x, In x l -> NoDup (f x)) ->
  (forall x y k, In x l -> In y l -> In k (f x) -> In k (f y) -> h x = h y) -> NoDup (flat_map f l).
Proof.
  induction l as [|a l IH]; intros Hnd Hpart Hsame; cbn [flat_map]; [constructor|].
  cbn [map] in Hnd. inversion Hnd as [|? ? Hni Hnd']; subst.
  apply nodup_app. split; [|split].
  - apply Hpart. left. reflexivity.
  - intros k Hk Hk'. apply in_flat_map in Hk' as (y & Hy & Hk').
    apply Hni. rewrite (Hsame a y k); [apply in_map; exact Hy|left; reflexivity|right; exact Hy|exact Hk|exact Hk'].
  - apply IH; [exact Hnd'|intros x Hx; apply Hpart; right; exact Hx|].
    intros x y k Hx Hy. apply Hsame; right; assumption.
Qed.

Lemma hash_inj (txs : list tx) t1 t2 : NoDup (map t_hash txs) -> In t1 txs -> In t2 txs -> t_hash t1 = t_hash t2 -> t1 = t2.
Proof. intros Hnd H1 H2 E. eapply (NoDup_map_inj t_hash); eauto. Qed.

Section HashFacts.
Variable SO : stf_oracle.
Variable s : wstate.

(* A batch writes to two kinds of coin id: coin_key (t_hash t) i for the outputs of its members and
   coin_key (so_faucet_marker SO (t_hash t)) 0 for their faucet markers.  The first two clauses make the
   output ids pairwise distinct and new, so that inserting them overwrites nothing; the other three keep the
   marker ids apart from the output ids, from the ids the batch spends, and from each other. *)
Record HashOK (txs : list tx) : Prop := {
  hk_nodup : NoDup (map t_hash txs);
  (* the hash of a new transaction is not the hash of a transaction that created a coin of the state *)
  hk_fresh : forall t i, In t txs -> i < 256 -> s_coins s !! coin_key (t_hash t) i = None;
  hk_marker_tx : forall t t', In t txs -> In t' txs -> so_faucet_marker SO (t_hash t) <> t_hash t';
  hk_marker_in : forall t t' i, In t txs -> In t' txs -> In i (t_inputs t') -> marker_key SO t <> input_key i;
  hk_marker_inj : forall t t', In t txs -> In t' txs ->
     so_faucet_marker SO (t_hash t) = so_faucet_marker SO (t_hash t') -> t_hash t = t_hash t'
}.

Lemma HashOK_sub txs l : HashOK txs -> (forall t, In t l -> In t txs) -> NoDup (map t_hash l) -> HashOK l.
Proof.
  intros [_ H2 H3 H4 H5] Hin Hnd. constructor; [exact Hnd| | | |].
  - intros t i Ht. apply H2; auto.
  - intros t t' Ht Ht'. apply H3; auto.
  - intros t t' i Ht Ht'. apply H4; auto.
  - intros t t' Ht Ht'. apply H5; auto.
Qed.

Lemma HashOK_perm txs1 txs2 : Permutation txs1 txs2 -> HashOK txs1 -> HashOK txs2.
Proof.
  intros P HK. apply (HashOK_sub txs1 txs2 HK).
  - intros t. apply Permutation_in, Permutation_sym, P.
  - eapply Permutation_NoDup; [apply Permutation_map; exact P|exact (hk_nodup _ HK)].
Qed.

Lemma HashOK_cons t r : HashOK (t :: r) -> HashOK [t] /\ HashOK r.
Proof.
  intros HK. pose proof (hk_nodup _ HK) as Hnd. cbn [map] in Hnd. inversion Hnd as [|? ? _ Hnd']; subst.
  split; apply (HashOK_sub (t :: r) _ HK).
  - intros t0 [<-|[]]. left. reflexivity.
  - repeat constructor. intros [].
  - intros t0 Ht0. right. exact Ht0.
  - exact Hnd'.
Qed.

Lemma coin_key_inj h1 i1 h2 i2 : i1 < 256 -> i2 < 256 -> coin_key h1 i1 = coin_key h2 i2 -> h1 = h2 /\ i1 = i2.
Proof. unfold coin_key. intros. split; nia. Qed.

Lemma enumerate_range {A} : forall (l : list A) a i o, In (i, o) (enumerate a l) -> a <= i < a + N.of_nat (length l).
Proof.
  induction l as [|x l IH]; intros a i o H; cbn [enumerate] in H; [contradiction|].
  destruct H as [E|H]; [injection E as <- <-; cbn [length]; lia|].
  apply IH in H. cbn [length]. lia.
Qed.

Lemma enumerate_fst_nodup {A} : forall (l : list A) a, NoDup (map fst (enumerate a l)).
Proof.
  induction l as [|x l IH]; intros a; cbn [enumerate map fst]; constructor; [|apply IH].
  intros Hin. apply in_map_fst in Hin as [o Hin].
  apply enumerate_range in Hin. lia.
Qed.

(* the coin id output_coins gives to the output at position [fst io] of [t] *)
Definition key_of (t : tx) (io : N * coindata) : N := coin_key (t_hash t) (fst io mod 256).
Definition out_keys (txs : list tx) : list N :=
  flat_map (fun t => map (key_of t) (enumerate 0 (t_outputs t))) txs.

Definition short_outputs (txs : list tx) : Prop := forall t, In t txs -> N.of_nat (length (t_outputs t)) <= 256.

Lemma load_relevant_short txs r : load_relevant_coins s txs = Ok r -> short_outputs txs.
Proof.
  intros H t Ht. destruct (load_relevant_coins_spec _ _ _ H) as (Hwf & _). destruct (Hwf t Ht) as [W _].
  unfold well_formed in W. apply andb_true_iff in W as [_ W]. apply N.leb_le in W. lia.
Qed.

Lemma tx_keys_nodup t : N.of_nat (length (t_outputs t)) <= 256 -> NoDup (map (key_of t) (enumerate 0 (t_outputs t))).
Proof.
  intros Hlen. pose proof (enumerate_fst_nodup (t_outputs t) 0) as Hnd.
  apply NoDup_ListNoDup, NoDup_fmap_2_strong; [|apply NoDup_ListNoDup, (NoDup_map_inv fst), Hnd].
  (* the ids of outputs at different positions below 256 differ *)
  intros [i o] [i' o'] Hio Hio' E. apply elem_of_list_In in Hio, Hio'.
  apply (NoDup_map_inj fst _ _ _ Hnd Hio Hio'). cbn [fst].
  apply enumerate_range in Hio, Hio'. unfold key_of in E. cbn [fst] in E.
  rewrite !N.mod_small in E by lia. apply coin_key_inj in E as [_ E]; [exact E|lia|lia].
Qed.

Lemma key_of_hash t t' io io' : key_of t io = key_of t' io' -> t_hash t = t_hash t'.
Proof.
  unfold key_of. intros E. apply coin_key_inj in E as [E _]; [exact E| |]; apply N.mod_lt; discriminate.
Qed.

Lemma out_keys_nodup txs : NoDup (map t_hash txs) -> short_outputs txs -> NoDup (out_keys txs).
Proof.
  intros Hnd Hs. apply (NoDup_flat_map_by t_hash); [exact Hnd|intros t Ht; apply tx_keys_nodup, Hs, Ht|].
  intros t t' k _ _ Hk Hk'. apply in_map_iff in Hk as (io & <- & _). apply in_map_iff in Hk' as (io' & E & _).
  symmetry. exact (key_of_hash _ _ _ _ E).
Qed.

Lemma in_out_keys txs t io : In t txs -> In io (enumerate 0 (t_outputs t)) -> In (key_of t io) (out_keys txs).
Proof. intros Ht Hio. unfold out_keys. apply in_flat_map. exists t. split; [exact Ht|]. apply (in_map (key_of t)). exact Hio. Qed.

Lemma out_keys_inv txs k : In k (out_keys txs) -> exists t io, In t txs /\ In io (enumerate 0 (t_outputs t)) /\ k = key_of t io.
Proof.
  unfold out_keys. intros H. apply in_flat_map in H as (t & Ht & H). apply in_map_iff in H as (io & <- & Hio). eauto.
Qed.

Lemma outputs_map_none txs k : ~ In k (out_keys txs) -> outputs_map s txs !! k = None.
Proof.
  intros Hk. rewrite outputs_map_ins_all, ins_all_notin; [apply lookup_empty|].
  intros Hin. apply Hk. apply in_map_fst in Hin as [c Hin].
  apply in_created_key in Hin as (t & i & o & Ht & Hio & ->). apply (in_out_keys txs t (i, o) Ht Hio).
Qed.

Lemma out_keys_inj txs t io t' io' :
  NoDup (out_keys txs) -> In t txs -> In io (enumerate 0 (t_outputs t)) ->
  In t' txs -> In io' (enumerate 0 (t_outputs t')) -> key_of t io = key_of t' io' -> t = t' /\ io = io'.
Proof.
  intros Hnd Ht Hio Ht' Hio' E.
  assert (t = t').
  { apply (NoDup_flat_map_inj (fun t => map (key_of t) (enumerate 0 (t_outputs t))) txs t t' (key_of t io) Hnd Ht Ht').
    - apply in_map. exact Hio.
    - rewrite E. apply in_map. exact Hio'. }
  subst t'. split; [reflexivity|]. apply (NoDup_map_inj (key_of t) (enumerate 0 (t_outputs t))); auto.
  apply (NoDup_flat_map_part (fun t => map (key_of t) (enumerate 0 (t_outputs t))) txs); assumption.
Qed.

Section Derived.
Variable txs : list tx.
Hypothesis HK : HashOK txs.
Hypothesis Hshort : short_outputs txs.

Lemma hk_out_nodup : NoDup (out_keys txs).
Proof. apply out_keys_nodup; [apply (hk_nodup _ HK)|exact Hshort]. Qed.

Lemma hk_out_fresh k : In k (out_keys txs) -> s_coins s !! k = None.
Proof. intros H. apply out_keys_inv in H as (t & io & Ht & _ & ->). apply (hk_fresh _ HK); [exact Ht|apply N.mod_lt; discriminate]. Qed.

Lemma hk_marker_ne t t' i : In t txs -> In t' txs -> marker_key SO t <> coin_key (t_hash t') (i mod 256).
Proof.
  intros Ht Ht' E. apply coin_key_inj in E as [E _]; [|lia|apply N.mod_lt; discriminate].
  exact (hk_marker_tx _ HK t t' Ht Ht' E).
Qed.

Lemma hk_marker_not_out t : In t txs -> ~ In (marker_key SO t) (out_keys txs).
Proof. intros Ht H. apply out_keys_inv in H as (t' & io & Ht' & _ & E). exact (hk_marker_ne t t' _ Ht Ht' E). Qed.

Lemma hk_marker_not_input t : In t txs -> ~ In (marker_key SO t) (all_inputs txs).
Proof.
  intros Ht H. unfold all_inputs in H. apply in_flat_map in H as (t' & Ht' & H).
  apply in_map_iff in H as (i & E & Hi). symmetry in E. exact (hk_marker_in _ HK t t' i Ht Ht' Hi E).
Qed.

Lemma hk_marker_distinct t t' : In t txs -> In t' txs -> marker_key SO t = marker_key SO t' -> t_hash t = t_hash t'.
Proof.
  intros Ht Ht' E. unfold marker_key in E. apply coin_key_inj in E as [E _]; [|lia|lia].
  eapply (hk_marker_inj _ HK); eauto.
Qed.

Variable relevant : gmap N cdh.

Lemma insert_key_cases t k :
  In k (map fst (tx_inserts SO relevant t)) ->
  (is_faucet t && negb (is_bug_tx t) = true /\ k = marker_key SO t) \/
  (exists io, In io (enumerate 0 (t_outputs t)) /\ k = key_of t io).
Proof.
  intros H. apply in_map_fst in H as [c H].
  apply in_tx_inserts in H as [(Hf & -> & _)|(i & o & Hio & -> & _)]; [left; auto|right; exists (i, o); auto].
Qed.

Lemma tx_inserts_nodup t : In t txs -> NoDup (map fst (tx_inserts SO relevant t)).
Proof.
  intros Ht. unfold tx_inserts. rewrite map_app. apply nodup_app. split; [|split].
  - destruct (_ && _); cbn [map]; repeat constructor. intros [].
  - intros k Hk Hk'.
    destruct (txkind_eqb (t_kind t) KFaucet && negb (is_bug_tx t)); [|contradiction].
    destruct Hk as [<-|[]]. cbn [fst] in Hk'. rewrite map_flat_map in Hk'.
    apply in_flat_map in Hk' as ([i o] & Hio & Hk').
    destruct (relevant !! coin_key (t_hash t) (i mod 256)); [|contradiction]. destruct Hk' as [E|[]].
    exact (hk_marker_ne t t i Ht Ht (eq_sym E)).
  - (* at most one binding per output, under the id of the output *)
    rewrite map_flat_map. apply (NoDup_flat_map_by (key_of t)); [apply tx_keys_nodup, Hshort, Ht| |].
    + intros [i o] _. cbn zeta. destruct (relevant !! _); repeat constructor. intros [].
    + intros [i o] [i' o'] k _ _ Hk Hk'. unfold key_of. cbn [fst]. cbn zeta in Hk, Hk'.
      destruct (relevant !! coin_key (t_hash t) (i mod 256)); [|contradiction].
      destruct (relevant !! coin_key (t_hash t) (i' mod 256)); [|contradiction].
      destruct Hk as [<-|[]]. destruct Hk' as [E|[]]. symmetry. exact E.
Qed.
End Derived.

Lemma hk_marker_head_ne t r t' : HashOK (t :: r) -> In t' r -> marker_key SO t' <> marker_key SO t.
Proof.
  intros HK Ht' E. pose proof (hk_nodup _ HK) as Hnd. cbn [map] in Hnd. inversion Hnd as [|? ? Hni _]; subst.
  apply Hni. rewrite <- (hk_marker_distinct _ HK t' t (or_intror Ht') (or_introl eq_refl) E). apply in_map. exact Ht'.
Qed.

Lemma batch_inserts_nodup relevant : forall txs, HashOK txs -> short_outputs txs ->
  NoDup (map fst (flat_map (tx_inserts SO relevant) txs)).
Proof.
  intros txs HK Hs. rewrite map_flat_map.
  apply (NoDup_flat_map_by t_hash); [apply (hk_nodup _ HK)|intros t Ht; apply (tx_inserts_nodup txs HK Hs), Ht|].
  intros t t' k Ht Ht' Hk Hk'.
  apply insert_key_cases in Hk as [(_ & E1)|(io & Hio & E1)]; apply insert_key_cases in Hk' as [(_ & E2)|(io' & Hio' & E2)].
  - apply (hk_marker_distinct txs HK t t' Ht Ht'). congruence.
  - destruct (hk_marker_not_out txs HK t Ht). rewrite <- E1, E2. apply in_out_keys; assumption.
  - destruct (hk_marker_not_out txs HK t' Ht'). rewrite <- E2, E1. apply in_out_keys; assumption.
  - eapply key_of_hash. rewrite <- E1, <- E2. reflexivity.
Qed.

Lemma hk_inserts_fresh relevant txs : HashOK txs -> (forall t, In t txs -> faucet_ok SO s t) ->
  forall k, In k (map fst (flat_map (tx_inserts SO relevant) txs)) -> s_coins s !! k = None.
Proof.
  intros HK Hfa k Hk. rewrite map_flat_map in Hk. apply in_flat_map in Hk as (t & Ht & Hk).
  apply insert_key_cases in Hk as [(Hf & ->)|(io & Hio & ->)].
  - apply andb_true_iff in Hf as [Hf _]. apply (Hfa t Ht Hf).
  - apply (hk_out_fresh txs HK). apply in_out_keys; assumption.
Qed.

(* elsewhere a batch can only delete; no assumption on hashes is needed *)
Lemma batch_coins_unwritten lh txs s' k :
  apply_tx_batch SO s lh txs = Ok s' -> ~ In k (out_keys txs) ->
  (forall t, In t txs -> is_faucet t && negb (is_bug_tx t) = true -> k <> marker_key SO t) ->
  s_coins s' !! k = del_all (all_inputs txs) (s_coins s) !! k.
Proof.
  intros H Ho Hm. destruct (accepted_batch_coins _ _ _ _ _ H) as (relevant & _ & ->).
  destruct (in_dec N.eq_dec k (all_inputs txs)) as [Hi|Hi]; [rewrite !del_all_in by exact Hi; reflexivity|].
  rewrite !del_all_notin by exact Hi. apply ins_all_notin. rewrite map_flat_map. intros Hk.
  apply in_flat_map in Hk as (t & Ht & Hk).
  apply insert_key_cases in Hk as [(Hf & ->)|(io & Hio & ->)]; [exact (Hm t Ht Hf eq_refl)|].
  apply Ho, in_out_keys; assumption.
Qed.

Lemma batch_coin_at lh txs s' : apply_tx_batch SO s lh txs = Ok s' -> forall h i,
  i < 256 -> (forall t, In t txs -> t_hash t <> h) ->
  (forall t, In t txs -> is_faucet t && negb (is_bug_tx t) = true -> so_faucet_marker SO (t_hash t) <> h) ->
  s_coins s' !! coin_key h i = del_all (all_inputs txs) (s_coins s) !! coin_key h i.
Proof.
  intros H h i Hi Hne Hm. apply (batch_coins_unwritten lh txs s' _ H).
  - intros Ho. apply out_keys_inv in Ho as (t & io & Ht & _ & E).
    apply coin_key_inj in E as [E _]; [|exact Hi|apply N.mod_lt; discriminate]. exact (Hne t Ht (eq_sym E)).
  - intros t Ht Hf E. unfold marker_key in E. apply coin_key_inj in E as [E _]; [|exact Hi|lia].
    exact (Hm t Ht Hf (eq_sym E)).
Qed.
End HashFacts.

Lemma HashOK_state SO s1 s2 txs :
  HashOK SO s1 txs -> (forall t i, In t txs -> i < 256 -> s_coins s2 !! coin_key (t_hash t) i = None) -> HashOK SO s2 txs.
Proof. intros [H1 _ H3 H4 H5] H2. constructor; assumption. Qed.
