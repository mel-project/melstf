(* C03: order independence of a batch.  Proved here, for two accepted presentations of the same set: the same
   coin set, the same fee accounting, the same untouched fields.  That acceptance itself, the stakes and the rest
   of the state do not depend on the order is PermAccept.batch_order_independent. *)
From MelVerif Require Import STF.Proofs.Tactics STF.Proofs.MapLemmas STF.Proofs.Stakes STF.Proofs.Faucet
  STF.Proofs.Coins STF.Proofs.Fees.
From Coq Require Import ZifyN ZifyNat ZifyBool.
Open Scope N_scope.

Section Perm.
Variable SO : stf_oracle.
Variable s : wstate.
Variable lh : header.

Lemma all_inputs_perm txs1 txs2 : Permutation txs1 txs2 -> Permutation (all_inputs txs1) (all_inputs txs2).
Proof. intros P. unfold all_inputs. apply Permutation_flat_map. exact P. Qed.

Lemma lookup_inputs_complete accum coins : forall ks m,
  (forall k, In k ks -> is_Some (accum !! k) \/ is_Some (coins !! k)) ->
  exists r, lookup_inputs accum coins ks m = Ok r.
Proof.
  induction ks as [|k ks IH]; intros m H; cbn [lookup_inputs]; [eauto|].
  assert (Hr: forall k', In k' ks -> is_Some (accum !! k') \/ is_Some (coins !! k')) by (intros k' Hk'; apply H; right; exact Hk').
  destruct (accum !! k) as [c|] eqn:Ea; [apply IH; exact Hr|].
  destruct (H k (or_introl eq_refl)) as [[c E]|[c E]]; [rewrite Ea in E; discriminate|].
  rewrite E. apply IH. exact Hr.
Qed.

Lemma load_relevant_ok_iff txs :
  (exists r, load_relevant_coins s txs = Ok r) <->
  (forall t, In t txs -> well_formed t = true /\ totals_fit t = true) /\ NoDup (all_inputs txs) /\
  (forall k, In k (all_inputs txs) -> is_Some (outputs_map s txs !! k) \/ is_Some (s_coins s !! k)).
Proof.
  split.
  - intros [r H]. destruct (load_relevant_coins_spec _ _ _ H) as (Hwf & Hnd & Hex & _). auto.
  - intros (Hwf & Hnd & Hex). unfold load_relevant_coins. fold (outputs_map s txs).
    assert (Hf: forallb (fun t => well_formed t && totals_fit t) txs = true).
    { apply forallb_forall. intros t Ht. destruct (Hwf t Ht) as [-> ->]. reflexivity. }
    rewrite Hf. cbn [negb].
    destruct (lookup_inputs_complete (outputs_map s txs) (s_coins s) (all_inputs txs) ∅ Hex) as [ins ->].
    cbn [obind]. rewrite (proj2 (dup_free_iff _ _)); [eauto|]. split; [exact Hnd|intros; apply lookup_empty].
Qed.

Lemma load_relevant_perm txs1 txs2 r :
  Permutation txs1 txs2 -> consistent (created s txs1) ->
  load_relevant_coins s txs1 = Ok r -> load_relevant_coins s txs2 = Ok r.
Proof.
  intros P Hc H1. destruct (load_relevant_coins_spec _ _ _ H1) as (Hwf & Hnd & Hex & _).
  pose proof (all_inputs_perm _ _ P) as Pi.
  assert (Eo: outputs_map s txs1 = outputs_map s txs2).
  { rewrite !outputs_map_ins_all. apply ins_all_perm; [exact (Permutation_flat_map _ P)|exact Hc]. }
  destruct (proj2 (load_relevant_ok_iff txs2)) as [r2 H2].
  { split; [|split].
    - intros t Ht. apply Hwf. exact (Permutation_in _ (Permutation_sym P) Ht).
    - exact (Permutation_NoDup Pi Hnd).
    - intros k Hk. rewrite <- Eo. apply Hex. exact (Permutation_in _ (Permutation_sym Pi) Hk). }
  rewrite H2. f_equal.
  apply map_eq. intros k. destruct (in_dec N.eq_dec k (all_inputs txs1)) as [Hk|Hk].
  - rewrite (relevant_input s _ _ k H1 Hk), (relevant_input s _ _ k H2 (Permutation_in _ Pi Hk)), Eo. reflexivity.
  - rewrite (relevant_other s _ _ k H1 Hk), Eo. apply (relevant_other s _ _ k H2).
    intros Hk2. apply Hk. exact (Permutation_in _ (Permutation_sym Pi) Hk2).
Qed.

(* C03 (coins): two accepted presentations of the same set of transactions give the same coin map *)
Theorem accepted_perm_same_coins txs1 txs2 s1 s2 :
  Permutation txs1 txs2 ->
  consistent (created s txs1) ->
  (forall t t' i, In t txs1 -> In t' txs1 -> marker_key SO t <> coin_key (t_hash t') (i mod 256)) ->
  apply_tx_batch SO s lh txs1 = Ok s1 -> apply_tx_batch SO s lh txs2 = Ok s2 ->
  s_coins s1 = s_coins s2.
Proof.
  intros P Hc Hmk H1 H2.
  destruct (accepted_batch_coins _ _ _ _ _ H1) as (r1 & Hr1 & ->).
  destruct (accepted_batch_coins _ _ _ _ _ H2) as (r2 & Hr2 & ->).
  rewrite (load_relevant_perm _ _ _ P Hc Hr1) in Hr2. injection Hr2 as <-.
  rewrite (del_all_perm _ _ _ (all_inputs_perm _ _ P)). f_equal.
  apply ins_all_perm; [apply Permutation_flat_map; exact P|].
  apply batch_inserts_consistent. exact Hmk.
Qed.

(* a saturating sum is the plain sum, capped: the order of the summands does not matter *)
Lemma sat_add_fold_closed : forall (l : list N) a, a <= MAX128 ->
  fold_left sat_add128 l a = N.min (a + fold_right N.add 0 l) MAX128.
Proof.
  unfold sat_add128. generalize MAX128 as M. intros M.
  induction l as [|x l IH]; intros a Ha; cbn [fold_left fold_right]; [lia|].
  rewrite IH by lia. lia.
Qed.

Lemma fee_fold_closed mult : forall txs fp tips, fp <= MAX128 -> tips <= MAX128 ->
  fee_fold mult txs fp tips =
  if forallb (fun t => match min_fee mult t with Ok mf => mf <=? t_fee t | _ => false end) txs
  then Some (N.min (fp + fold_right N.add 0 (map (fun t => match min_fee mult t with Ok mf => mf | _ => 0 end) txs)) MAX128,
             N.min (tips + fold_right N.add 0 (map (fun t => match min_fee mult t with Ok mf => t_fee t - mf | _ => 0 end) txs)) MAX128)
  else None.
Proof.
  induction txs as [|t r IH]; intros fp tips Hfp Htips; cbn [fee_fold forallb map fold_right].
  - rewrite !N.add_0_r, !N.min_l by assumption. reflexivity.
  - destruct (min_fee mult t) as [mf| |]; [|reflexivity|reflexivity].
    destruct (N.ltb_spec (t_fee t) mf) as [Hlt|Hge].
    + destruct (N.leb_spec mf (t_fee t)); [lia|reflexivity].
    + destruct (N.leb_spec mf (t_fee t)); [|lia]. cbn [andb].
      rewrite IH by apply N.le_min_r.
      destruct (forallb _ r); [|reflexivity]. unfold sat_add128. clear. generalize MAX128 as M. intros M.
      f_equal. f_equal; lia.
Qed.

Lemma sum_perm (l1 l2 : list N) : Permutation l1 l2 -> fold_right N.add 0 l1 = fold_right N.add 0 l2.
Proof. induction 1; cbn [fold_right]; lia. Qed.

Lemma forallb_perm {A} (f : A -> bool) l1 l2 : Permutation l1 l2 -> forallb f l1 = forallb f l2.
Proof.
  induction 1 as [|x l l' _ IH|x y l|l l' l'' _ IH1 _ IH2]; cbn [forallb]; try congruence.
  - destruct (f x), (f y); reflexivity.
Qed.

Theorem fee_fold_perm mult txs1 txs2 fp tips :
  Permutation txs1 txs2 -> fp <= MAX128 -> tips <= MAX128 ->
  fee_fold mult txs1 fp tips = fee_fold mult txs2 fp tips.
Proof.
  intros P Hfp Htips. rewrite !fee_fold_closed by assumption.
  rewrite (forallb_perm _ _ _ P).
  rewrite (sum_perm _ _ (Permutation_map _ P)).
  rewrite (sum_perm (map (fun t => match min_fee mult t with Ok mf => t_fee t - mf | _ => 0 end) txs1) _ (Permutation_map _ P)).
  reflexivity.
Qed.

Theorem accepted_perm_same_fees txs1 txs2 s1 s2 :
  Permutation txs1 txs2 -> s_fee_pool s <= MAX128 -> s_tips s <= MAX128 ->
  apply_tx_batch SO s lh txs1 = Ok s1 -> apply_tx_batch SO s lh txs2 = Ok s2 ->
  s_fee_pool s1 = s_fee_pool s2 /\ s_tips s1 = s_tips s2.
Proof.
  intros P Hfp Htips H1 H2.
  pose proof (accepted_batch_fees _ _ _ _ _ H1) as F1. pose proof (accepted_batch_fees _ _ _ _ _ H2) as F2.
  rewrite (fee_fold_perm _ _ _ _ _ P Hfp Htips) in F1. rewrite F1 in F2. injection F2 as -> ->. auto.
Qed.

(* C03 (height, network, history, pools, multiplier): untouched by a batch, hence trivially order-free *)
Theorem accepted_perm_same_frame txs1 txs2 s1 s2 :
  apply_tx_batch SO s lh txs1 = Ok s1 -> apply_tx_batch SO s lh txs2 = Ok s2 ->
  s_height s1 = s_height s2 /\ s_network s1 = s_network s2 /\ s_history s1 = s_history s2 /\
  s_pools s1 = s_pools s2 /\ s_fee_mult s1 = s_fee_mult s2.
Proof.
  intros H1 H2. destruct (apply_tx_batch_frame _ _ _ _ _ H1) as (-> & -> & -> & -> & ->).
  destruct (apply_tx_batch_frame _ _ _ _ _ H2) as (-> & -> & -> & -> & ->). auto.
Qed.
End Perm.
