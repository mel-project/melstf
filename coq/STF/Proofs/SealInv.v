(* C16: the built-in pools keep non-zero reserves.  Swapping, depositing, the peg and the subsidy keep a live pool live
   whatever the amounts (no overflow hypothesis: the saturating arithmetic of the code is followed); a withdrawal keeps
   it live when it burns less than the recorded liquidity, which is the case while the pool's token is backed with room
   to spare (Section Backed), a property that sealing and batches keep in turn. *)
From MelVerif Require Import STF.Proofs.SealSteps STF.Proofs.Tactics STF.Proofs.Frame STF.Proofs.Supply
  STF.Proofs.Pool STF.Proofs.SealCoins STF.Proofs.HashFacts STF.Proofs.BatchSupply STF.Proofs.SealSupply
  STF.Proofs.PoolKeys STF.Proofs.SealLift.
From Coq Require Import ZifyN ZifyNat ZifyBool.
Open Scope N_scope.

Definition live (p : pool) : Prop := 1 <= p_lefts p /\ 1 <= p_rights p /\ 1 <= p_liqs p.

Theorem swap_many_live p l r :
  live p -> l <= MAX128 -> r <= MAX128 ->
  exists p' lw rw, swap_many p l r = Ok (p', lw, rw) /\ live p'.
Proof.
  intros (HL & HR & HQ) Hl Hr.
  destruct (swap_many_total p l r HL HR Hl Hr) as (p' & lw & rw & E & (HL' & HR') & HQ').
  exists p', lw, rw. unfold live. rewrite HQ'. auto.
Qed.

Lemma swap_many_keeps_live p l r p' lw rw :
  swap_many p l r = Ok (p', lw, rw) -> live p -> l <= MAX128 -> r <= MAX128 -> live p'.
Proof.
  intros H Hl Hb1 Hb2. destruct (swap_many_live p l r Hl Hb1 Hb2) as (q & a & b & E & Hq).
  rewrite E in H. injection H as <- _ _. exact Hq.
Qed.

Lemma nudge_live p l r p' : nudge p l r p' -> live p -> l <= MAX128 -> r <= MAX128 -> live p'.
Proof. intros [-> | (lw & rw & H)] Hl Hb1 Hb2; [exact Hl|]. exact (swap_many_keeps_live _ _ _ _ _ _ H Hl Hb1 Hb2). Qed.

Lemma pool_deposit_live p l r : live p -> exists p' m, pool_deposit p l r = Ok (p', m) /\ live p'.
Proof.
  intros (HL & HR & HQ). unfold pool_deposit. destruct (N.eqb_spec (p_liqs p) 0); [lia|].
  destruct (N.eqb_spec (p_lefts p * p_rights p) 0); [nia|].
  eexists. eexists. split; [reflexivity|]. unfold live. cbn [p_lefts p_rights p_liqs].
  pose proof (proj1 (sat_add128_bounds (p_liqs p) (to_u128_sat (N.sqrt (p_liqs p * p_liqs p * ((sat_add128 l (p_lefts p) - p_lefts p) * (sat_add128 r (p_rights p) - p_rights p)) / (p_lefts p * p_rights p)))) HQ (to_u128_sat_max _))).
  lia.
Qed.

Lemma pool_withdraw_live p l : live p -> l < p_liqs p -> exists p' a b, pool_withdraw p l = Ok (p', a, b) /\ live p'.
Proof.
  intros (HL & HR & HQ) Hl.
  destruct (pool_withdraw_spec p l ltac:(lia) ltac:(lia)) as (p' & a & b & E & E1 & _ & _ & _ & _ & _ & _ & P1 & P2).
  exists p', a, b. split; [exact E|]. unfold live. specialize (P1 Hl HL). specialize (P2 Hl HR). lia.
Qed.

Definition live_at (s : wstate) (k : denom * denom) : Prop := exists p, get_pool s k = Some p /\ live p.

Lemma live_at_put s k1 q k : live_at s k -> (poolkey_code k1 = poolkey_code k -> live q) -> live_at (put_pool s k1 q) k.
Proof.
  intros (p & Ep & Hl) Hq. destruct (N.eq_dec (poolkey_code k1) (poolkey_code k)) as [E|E].
  - exists q. split; [unfold get_pool; rewrite <- E; apply get_pool_put_same|exact (Hq E)].
  - exists p. split; [rewrite get_pool_put_other by exact E; exact Ep|exact Hl].
Qed.

(* the same pool under another name with the same code *)
Lemma live_at_code s k1 k p : poolkey_code k1 = poolkey_code k -> get_pool s k1 = Some p -> live_at s k -> live p.
Proof. intros E Ep (q & Eq & Hl). unfold get_pool in *. rewrite E in Ep. congruence. Qed.

Definition code_apart (ks : list (denom * denom)) (k : denom * denom) : Prop :=
  forall k1, In k1 ks -> poolkey_code k1 = poolkey_code k -> k1 = k.

(* a fixed pool through a settlement loop: the turns of the other pools leave it alone and its own turn comes at
   most once, so at the end it is as it was, or as its own turn - which found it as it was - left it *)
Lemma for_pools_pool f reqs k :
  (forall k1 s s', f k1 s (txs_for_pool reqs k1) = Ok s' -> touches k1 (txs_for_pool reqs k1) s s') ->
  forall ks s s', NoDup ks -> code_apart ks k -> for_pools f reqs ks s = Ok s' ->
  get_pool s' k = get_pool s k \/
  exists s0 s1, get_pool s0 k = get_pool s k /\ f k s0 (txs_for_pool reqs k) = Ok s1 /\ get_pool s' k = get_pool s1 k.
Proof.
  intros Hother ks s s' Hnd Hinj H.
  destruct (for_pools_invariant f reqs (fun ks s2 => NoDup ks /\ code_apart ks k /\
              (get_pool s2 k = get_pool s k \/ ~ In k ks /\
               exists s0 s1, get_pool s0 k = get_pool s k /\ f k s0 (txs_for_pool reqs k) = Ok s1 /\ get_pool s2 k = get_pool s1 k)))
    with (ks := ks) (s := s) (s' := s') as (_ & _ & [E|[_ Hturn]]); auto.
  intros k1 ks0 s2 s3 (Hnd0 & Hinj0 & Hc) H1. inversion Hnd0 as [|? ? Hni Hnd']; subst.
  split; [exact Hnd'|]. split; [intros k2 Hk2; apply Hinj0; right; exact Hk2|].
  destruct (N.eq_dec (poolkey_code k1) (poolkey_code k)) as [E|E].
  - assert (k1 = k) by (apply Hinj0; [left; reflexivity|exact E]). subst k1.
    destruct Hc as [E2|[Hn _]]; [|exfalso; apply Hn; left; reflexivity]. right. split; [exact Hni|]. exists s2, s3. auto.
  - rewrite (proj1 (proj2 (Hother k1 s2 s3 H1)) k) by congruence.
    destruct Hc as [E2|[Hn Hturn]]; [left; exact E2|right; split; [intros Hi; apply Hn; right; exact Hi|exact Hturn]].
Qed.

Theorem process_swaps_keeps_live s s' k :
  process_swaps s = Ok s' -> live_at s k ->
  code_apart (pool_keys_sorted (List.filter (is_swap_request s) (sorted_txs s))) k ->
  live_at s' k.
Proof.
  unfold process_swaps. intros H (p & Ep & Hl) Hinj.
  destruct (for_pools_pool swaps_single_pool _ k (fun k1 s0 => swaps_single_pool_touches k1 s0 _) _ s s' (pool_keys_sorted_nodup _) Hinj H)
    as [E|(s0 & s1 & E0 & H1 & E1)]; [exists p; rewrite E; auto|].
  destruct (swaps_single_pool_turn _ _ _ _ H1) as (q & q' & lw & rw & Eq & Hsw & _ & Eq').
  rewrite E0, Ep in Eq. injection Eq as <-. exists q'. split; [rewrite E1; exact Eq'|].
  exact (swap_many_keeps_live _ _ _ _ _ _ Hsw Hl (sat_sum_max _) (sat_sum_max _)).
Qed.

Section Inv.
Variable SO : stf_oracle.

Theorem process_deposits_keeps_live s s' k :
  process_deposits SO s = Ok s' -> live_at s k ->
  code_apart (pool_keys_sorted (List.filter (is_deposit_request s) (sorted_txs s))) k ->
  live_at s' k.
Proof.
  unfold process_deposits. intros H (p & Ep & Hl) Hinj.
  destruct (for_pools_pool (deposits_single_pool SO) _ k (fun k1 s0 => deposits_single_pool_touches SO k1 s0 _) _ s s' (pool_keys_sorted_nodup _) Hinj H)
    as [E|(s0 & s1 & E0 & H1 & E1)]; [exists p; rewrite E; auto|].
  destruct (deposits_single_pool_turn _ _ _ _ _ H1) as (q' & m & Hd & _ & Eq'). rewrite E0, Ep in Hd.
  match type of Hd with pool_deposit p ?a ?b = _ => destruct (pool_deposit_live p a b Hl) as (q2 & m2 & E2 & Hl2) end.
  rewrite E2 in Hd. injection Hd as <- _. exists q2. rewrite E1. auto.
Qed.

Theorem process_withdrawals_keeps_live s s' k p :
  process_withdrawals SO s = Ok s' -> get_pool s k = Some p -> live p ->
  code_apart (pool_keys_sorted (List.filter (is_withdraw_request SO s) (sorted_txs s))) k ->
  (* what is asked to be burnt from this pool is less than what it recorded *)
  sat_sum (map (fun t => cd_value (out0 t)) (txs_for_pool (List.filter (is_withdraw_request SO s) (sorted_txs s)) k)) < p_liqs p ->
  live_at s' k.
Proof.
  unfold process_withdrawals. intros H Ep Hl Hinj Hlt.
  destruct (for_pools_pool withdrawals_single_pool _ k (fun k1 s0 => withdrawals_single_pool_touches k1 s0 _) _ s s' (pool_keys_sorted_nodup _) Hinj H)
    as [E|(s0 & s1 & E0 & H1 & E1)]; [exists p; rewrite E; auto|].
  destruct (withdrawals_single_pool_turn _ _ _ _ H1) as (q & Eq & _ & Hcase).
  rewrite E0, Ep in Eq. injection Eq as <-. destruct Hcase as [->|(q' & a & b & Hw & Eq')]; [exists p; rewrite E1, E0; auto|].
  destruct (pool_withdraw_live p _ Hl Hlt) as (q2 & a2 & b2 & E2 & Hl2). rewrite E2 in Hw. injection Hw as <- _ _.
  exists q2. rewrite E1. auto.
Qed.

Lemma settlement_keeps_live s1 s2 s3 s4 k :
  process_swaps s1 = Ok s2 -> process_deposits SO s2 = Ok s3 -> process_withdrawals SO s3 = Ok s4 -> live_at s1 k ->
  (forall flt : tx -> bool, code_apart (pool_keys_sorted (List.filter flt (sorted_txs s1))) k) ->
  (forall p3, get_pool s3 k = Some p3 ->
     sat_sum (map (fun t => cd_value (out0 t)) (txs_for_pool (List.filter (is_withdraw_request SO s3) (sorted_txs s3)) k)) < p_liqs p3) ->
  live_at s4 k.
Proof.
  intros H2 H3 H4 L1 Kinj Hw.
  destruct (frame_fp_facts _ _ (frame_process_swaps _ _ H2)) as (T2 & _).
  destruct (frame_fp_facts _ _ (frame_process_deposits SO _ _ H3)) as (T3 & _). rewrite T2 in T3.
  pose proof (process_swaps_keeps_live s1 s2 k H2 L1 (Kinj _)) as L2.
  destruct (process_deposits_keeps_live s2 s3 k H3 L2) as (p3 & E3 & L3); [rewrite T2; apply Kinj|].
  apply (process_withdrawals_keeps_live s3 s4 k p3 H4 E3 L3); [rewrite T3; apply Kinj|exact (Hw p3 E3)].
Qed.
End Inv.

Lemma shiftr_le a d : N.shiftr a d <= a.
Proof.
  rewrite N.shiftr_div_pow2. apply N.div_le_upper_bound; [apply N.pow_nonzero; discriminate|].
  assert (2 ^ d <> 0) by (apply N.pow_nonzero; discriminate). nia.
Qed.

Lemma subsidy_fits x d : x <= N.shiftr (2 ^ 20) d -> x <= MAX128.
Proof. intros H. pose proof (shiftr_le (2 ^ 20) d). change (2 ^ 20) with 1048576 in *. unfold MAX128, U128. lia. Qed.

Theorem process_pegging_keeps_live s s' k : process_pegging s = Ok s' -> live_at s k -> live_at s' k.
Proof.
  intros H L. destruct (process_pegging_inv s s' H) as (sm & sm1 & sm2 & x & y & Esm & Hx & Hy & N1 & N2 & ->).
  apply live_at_put; [exact L|]. intros E. pose proof (live_at_code s _ k sm E Esm L) as Lsm.
  assert (L1: live sm1) by (apply (nudge_live _ _ _ _ N1 Lsm); [exact (below_quotient _ _ _ Hx)|apply N.le_0_l]).
  apply (nudge_live _ _ _ _ N2 L1); [apply N.le_0_l|exact (below_quotient _ _ _ Hy)].
Qed.

Theorem tip909_keeps_live s s' k : apply_tip_909 s = Ok s' -> live_at s k -> live_at s' k.
Proof.
  intros H L.
  destruct (apply_tip_909_inv s s' H) as (sm & sm' & mel & x & es & es' & a & b & f & e & _ & Esm & Hr & _ & Ees & Hr2 & Hfe & ->).
  assert (La: live_at (put_pool s (poolkey_new Mel Sym) sm') k).
  { apply live_at_put; [exact L|]. intros E.
    apply (swap_many_keeps_live _ _ _ _ _ _ Hr (live_at_code s _ k sm E Esm L)); [apply N.le_0_l|].
    apply (subsidy_fits f ((s_height s - TIP_909_HEIGHT) / 1000000)). lia. }
  apply live_at_put; [exact La|]. intros E.
  apply (swap_many_keeps_live _ _ _ _ _ _ Hr2 (live_at_code _ _ k es E Ees La)); [apply N.le_0_l|].
  apply (subsidy_fits e ((s_height s - TIP_909_HEIGHT) / 1000000)). lia.
Qed.

Lemma builtin_pool_live : live builtin_pool.
Proof. unfold live, builtin_pool, MICRO. cbn. lia. Qed.

Theorem create_builtins_keeps_live s k : live_at s k -> live_at (create_builtins s) k.
Proof. intros (p & Ep & Hl). exists p. rewrite create_builtins_get, Ep. auto. Qed.

(* MEL/SYM and MEL/ERG; ERG/SYM is created only once TIP-902 is active ([bootstrap_creates]) *)
Theorem create_builtins_exist s :
  (exists p, get_pool (create_builtins s) (poolkey_new Mel Sym) = Some p) /\
  (exists p, get_pool (create_builtins s) (poolkey_new Mel Erg) = Some p).
Proof.
  rewrite !create_builtins_get. unfold bootstrap_creates. rewrite !N.eqb_refl, orb_true_r.
  split; [destruct (get_pool s (poolkey_new Mel Sym))|destruct (get_pool s (poolkey_new Mel Erg))]; eauto.
Qed.

Section Backed.
Variable K : list (denom * denom).
Hypothesis Kcodes : NoDup (map poolkey_code K).
Variable SO : stf_oracle.
Hypothesis K_builtins : In MS K /\ In ME K /\ In ES K.
(* different pools have different liquidity tokens (PoolKey::liq_token_denom hashes the pool name) *)
Hypothesis LD_inj : forall k1 k2, In k1 K -> In k2 K -> LDk SO k1 = LDk SO k2 -> k1 = k2.

Lemma liq_of_single k s : In k K -> liq_of K SO (LDk SO k) s = p_liqs (pool_at s k).
Proof.
  intros Hk.
  refine (eq_trans (ksum_single K Kcodes (fun k1 p => if denom_eqb (LDk SO k) (LDk SO k1) then p_liqs p else 0) s k Hk _) _).
  - intros k1 p Hk1 Hne. destruct (denom_eqb (LDk SO k) (LDk SO k1)) eqn:E; [|reflexivity].
    apply denom_eqb_eq in E. exfalso. apply Hne. symmetry. exact (LD_inj k k1 Hk Hk1 E).
  - cbv beta. rewrite denom_eqb_refl. reflexivity.
Qed.

Lemma request_sum_le_supply d s (ws : list tx) :
  NoDup (map key0 ws) -> (forall t, In t ws -> declared0 s t /\ cd_denom (out0 t) = d) ->
  nsum (map (fun t => cd_value (out0 t)) ws) <= coin_supply d (s_coins s).
Proof.
  intros Hnd Hdecl. pose proof (coin_supply_del_all d (map key0 ws) (s_coins s) Hnd) as E. rewrite map_map in E.
  assert (Es: map (fun t => vopt d (s_coins s !! key0 t)) ws = map (fun t => cd_value (out0 t)) ws).
  { apply map_ext_in. intros t Ht. destruct (Hdecl t Ht) as [(c & Ec & Ed & Ev) Hd]. rewrite Ec. cbn [vopt]. unfold val.
    rewrite Ed, Hd, denom_eqb_refl. exact Ev. }
  rewrite Es in E. lia.
Qed.

(* a pool whose token is backed with room to spare when the swaps start cannot be asked for all of its liquidity
   when the withdrawals start: the settlement inequality keeps the room, and the requests spend coins of the token *)
Lemma withdrawals_ask_less s1 s2 s3 k p1 p3 :
  process_swaps s1 = Ok s2 -> process_deposits SO s2 = Ok s3 -> ready K SO s1 -> deposits_fit K s2 ->
  In k K -> get_pool s1 k = Some p1 -> get_pool s3 k = Some p3 ->
  coin_supply (LDk SO k) (s_coins s1) + psum K (LDk SO k) s1 + 1 <= p_liqs p1 ->
  sat_sum (map (fun t => cd_value (out0 t)) (txs_for_pool (List.filter (is_withdraw_request SO s3) (sorted_txs s3)) k)) < p_liqs p3.
Proof.
  intros H2 H3 R1 Hsat Hk E1 E3 Hslack. set (d := LDk SO k) in *.
  destruct (before_withdrawals K Kcodes SO s1 s2 s3 H2 H3 R1 Hsat) as ((_ & _ & Hkeys & Hd0 & _) & S13).
  pose proof (S13 d) as S. unfold settles in S. rewrite !(liq_of_single k _ Hk) in S. unfold pool_at in S. rewrite E1, E3 in S.
  set (ws := txs_for_pool _ k).
  assert (Hsum: nsum (map (fun t => cd_value (out0 t)) ws) <= coin_supply d (s_coins s3)).
  { apply request_sum_le_supply.
    - apply key0_of_pairs, key_pairs_filter_nodup, key_pairs_filter_nodup. exact Hkeys.
    - intros t Ht. apply in_txs_for_pool in Ht as [Ht Etp]. apply filter_In in Ht as [Hin Hr].
      destruct (withdraw_request_spec SO s3 t Hr) as (Ek & _ & k' & p & c & E' & _ & Ec & Hden).
      rewrite Etp in E'. injection E' as <-. split; [|exact Hden].
      apply (declared0_of s3 s3 t c eq_refl Ec); [exact (Hd0 t c Hin Ek Ec)|rewrite Hden; discriminate]. }
  pose proof (sat_sum_le (map (fun t => cd_value (out0 t)) ws)). lia.
Qed.

(* C16, both clauses together, as an invariant of sealing: a live pool whose token is backed with room to
   spare (coins + tokens parked in reserves + 1 <= recorded liquidity - the built-in pools start with 10^9
   that nobody owns) is live and backed with the same room after the block is sealed. *)
Lemma seal_keeps_backed s a s' k p :
  seal SO s a = Ok s' -> ready K SO s -> unclamped K SO s -> In k K -> get_pool s k = Some p -> live p ->
  coin_supply (LDk SO k) (s_coins s) + psum K (LDk SO k) s + 1 <= p_liqs p ->
  exists p', get_pool s' k = Some p' /\ live p' /\
    coin_supply (LDk SO k) (s_coins s') + psum K (LDk SO k) s' + 1 <= p_liqs p'.
Proof.
  intros H R Hclamp Hk Ep Hl Hslack. destruct (R KSwap) as (_ & Hcover & _).
  pose proof (seal_settles K Kcodes SO K_builtins s a s' (LDk SO k) H R Hclamp) as S.
  apply seal_inv in H as (s5 & s6 & H5 & _ & H6 & H).
  apply preseal_inv in H5 as (s2 & s3 & s4 & H2 & H3 & H4 & H5).
  destruct (frame_fp_facts _ _ (frame_create_builtins s)) as (T1 & _).
  assert (L4: live_at s4 k).
  { apply (settlement_keeps_live SO _ s2 s3 s4 k H2 H3 H4 (create_builtins_keeps_live s k (ex_intro _ p (conj Ep Hl)))).
    - intros flt k1 Hk1 E. rewrite T1 in Hk1. apply pool_keys_sorted_in in Hk1 as (t & [Ht _]%filter_In & Et).
      apply (K_code_inj K Kcodes k1 k); [apply (Hcover t k1 Ht Et)|exact Hk|exact E].
    - (* the room to spare is still there after the bootstrap, which touches no custom denomination *)
      intros p3 E3. apply (withdrawals_ask_less (create_builtins s) s2 s3 k p p3 H2 H3); try assumption.
      + exact (ready_create_builtins K SO s R).
      + exact (proj1 (Hclamp s2 s3 H2 H3)).
      + rewrite create_builtins_get, Ep. reflexivity.
      + unfold LDk. rewrite coins_create_builtins, (psum_custom_create K Kcodes K_builtins). exact Hslack. }
  pose proof (process_pegging_keeps_live s4 s5 k H5 L4) as L5.
  assert (L6: live_at s6 k) by (destruct (tip_909 s5); [exact (tip909_keeps_live s5 s6 k H6 L5)|injection H6 as <-; exact L5]).
  assert (L': live_at s' k).
  { destruct a as [act|]; [|subst s'; exact L6]. unfold collect_proposer_fee in H. inv_bind H as v Hv. injection H as <-. exact L6. }
  destruct L' as (p' & Ep' & Lp'). exists p'. split; [exact Ep'|]. split; [exact Lp'|].
  unfold mass, issued, bootstrap, LDk in S. rewrite psum_custom_create in S by assumption. cbn [denom_eqb] in S.
  fold (LDk SO k) in S. rewrite !(liq_of_single k _ Hk) in S. unfold pool_at in S. rewrite Ep, Ep' in S. lia.
Qed.

Theorem seal_keeps_backed_pool_live s a s' k p :
  seal SO s a = Ok s' -> In k K -> get_pool s k = Some p -> live p ->
  coin_supply (LDk SO k) (s_coins s) + psum K (LDk SO k) s + 1 <= p_liqs p ->
  legacy_net s && (s_height s <? 978392) = false ->
  (forall t k1, In t (sorted_txs s) -> tx_pool t = Some k1 -> In k1 K /\ LDk SO k1 <> fst k1 /\ LDk SO k1 <> snd k1) ->
  NoDup (key_pairs (sorted_txs s)) ->
  (forall t c, In t (sorted_txs s) -> s_coins s !! key0 t = Some c -> as_declared t c (out0 t)) ->
  (forall t c, In t (sorted_txs s) -> s_coins s !! key1 t = Some c -> as_declared t c (out1 t)) ->
  nsum (map (fun t => cd_value (out0 t)) (sorted_txs s)) < U128 ->
  nsum (map (fun t => cd_value (out1 t)) (sorted_txs s)) < U128 ->
  (forall s2 s3, process_swaps (create_builtins s) = Ok s2 -> process_deposits SO s2 = Ok s3 ->
     (forall k1 p'' m, In k1 K ->
        pool_deposit (pool_at s2 k1)
          (nsum (map (fun t => cd_value (out0 t)) (txs_for_pool (List.filter (is_deposit_request s2) (sorted_txs s2)) k1)))
          (nsum (map (fun t => cd_value (out1 t)) (txs_for_pool (List.filter (is_deposit_request s2) (sorted_txs s2)) k1))) = Ok (p'', m) ->
        p_liqs (pool_at s2 k1) + m < U128) /\
     (forall k1 p1, In k1 K -> get_pool s3 k1 = Some p1 -> p_lefts p1 < U128 /\ p_rights p1 < U128)) ->
  exists p', get_pool s' k = Some p' /\ live p' /\
    coin_supply (LDk SO k) (s_coins s') + psum K (LDk SO k) s' + 1 <= p_liqs p'.
Proof.
  intros H Hk Ep Hl Hslack Hleg Hcover Hkeys Hd0 Hd1 Hs0 Hs1 Hclamp.
  exact (seal_keeps_backed s a s' k p H (ready_all K SO s Hleg Hcover Hkeys Hd0 Hd1 Hs0 Hs1) Hclamp Hk Ep Hl Hslack).
Qed.
End Backed.

Lemma batch_keeps_token K SO s lh txs s' k :
  apply_tx_batch SO s lh txs = Ok s' -> HashOK SO s txs -> batch_issuance (LDk SO k) txs = 0 ->
  s_pools s' = s_pools s /\
  coin_supply (LDk SO k) (s_coins s') + psum K (LDk SO k) s' <= coin_supply (LDk SO k) (s_coins s) + psum K (LDk SO k) s.
Proof.
  intros H HK Hiss. pose proof (accepted_batch_pools SO s lh txs s' H) as Epools. split; [exact Epools|].
  pose proof (batch_settles K SO (LDk SO k) s lh txs s' ltac:(discriminate) H HK) as G.
  unfold mass in G. rewrite Hiss, (liq_of_same K SO _ s s' Epools) in G. change (denom_eqb (LDk SO k) Mel) with false in G. lia.
Qed.

Theorem batch_keeps_backed K SO s lh txs s' k p :
  apply_tx_batch SO s lh txs = Ok s' -> HashOK SO s txs ->
  batch_issuance (LDk SO k) txs = 0 ->
  get_pool s k = Some p ->
  coin_supply (LDk SO k) (s_coins s) + psum K (LDk SO k) s + 1 <= p_liqs p ->
  get_pool s' k = Some p /\ coin_supply (LDk SO k) (s_coins s') + psum K (LDk SO k) s' + 1 <= p_liqs p.
Proof.
  intros H HK Hiss Ep Hslack. destruct (batch_keeps_token K SO s lh txs s' k H HK Hiss) as [Epools Hle].
  split; [unfold get_pool; rewrite Epools; exact Ep|lia].
Qed.
