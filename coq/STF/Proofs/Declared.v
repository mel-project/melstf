(* The coins at the first two output ids of the transactions of the current block are as those transactions
   declared them, and no two transactions of the block share an output id - in every reachable state.  The settlement
   theorems (SealLift, SealInv, SealTotal, SealPegged) take these two facts about the state that is sealed as
   premises; as invariants of every history they leave the history theorems with the hash-oracle assumptions and the
   no-overflow bounds only. *)
From MelVerif Require Import STF.Proofs.Tactics STF.Proofs.Frame STF.Proofs.SealCoins STF.Proofs.HashFacts
  STF.Proofs.SealSupply STF.Proofs.SealCounts STF.Proofs.SealLift STF.Proofs.History.
From Coq Require Import ZifyN ZifyNat ZifyBool.
Open Scope N_scope.

Definition Declared (s : wstate) : Prop := forall t, In t (sorted_txs s) ->
  (forall c, s_coins s !! key0 t = Some c -> as_declared t c (out0 t)) /\
  (forall c, s_coins s !! key1 t = Some c -> as_declared t c (out1 t)).

(* the definition, spelled out for the property files *)
Lemma declared_def s :
  Declared s <-> forall t, In t (sorted_txs s) ->
    (forall c, s_coins s !! key0 t = Some c ->
       cd_denom (c_data c) = fix_denom t (cd_denom (out0 t)) /\ cd_value (c_data c) = cd_value (out0 t)) /\
    (forall c, s_coins s !! key1 t = Some c ->
       cd_denom (c_data c) = fix_denom t (cd_denom (out1 t)) /\ cd_value (c_data c) = cd_value (out1 t)).
Proof. reflexivity. Qed.

Lemma hashes_key_pairs : forall l : list tx, NoDup (map t_hash l) -> NoDup (key_pairs l).
Proof.
  unfold key_pairs. induction l as [|t l IH]; intros H; cbn [flat_map map] in *; [constructor|].
  inversion H as [|? ? Hni Hnd]; subst.
  assert (Hout: forall i, i < 256 -> ~ In (coin_key (t_hash t) i) (flat_map (fun t0 => [key0 t0; key1 t0]) l)).
  { intros i Hi Hin. apply in_flat_map in Hin as (t' & Ht' & Hk). apply Hni.
    assert (E: t_hash t = t_hash t').
    { destruct Hk as [E|[E|[]]]; unfold key0, key1 in E; symmetry in E; apply coin_key_inj in E as [E _]; auto; lia. }
    rewrite E. apply in_map. exact Ht'. }
  cbn [app]. constructor.
  - intros [E|Hin]; [|exact (Hout 0 ltac:(lia) Hin)].
    unfold key0, key1 in E. apply coin_key_inj in E as [_ E]; lia.
  - constructor; [exact (Hout 1 ltac:(lia))|apply IH; exact Hnd].
Qed.

Lemma txkeyed_hashes s : TxKeyed s -> NoDup (map t_hash (sorted_txs s)).
Proof.
  intros K. unfold sorted_txs.
  assert (E: map t_hash (map snd (sort_by_key (map_to_list (s_txs s)))) = map fst (sort_by_key (map_to_list (s_txs s)))).
  { rewrite map_map. apply map_ext_in. intros [h t] Hin. cbn [fst snd]. apply K.
    apply elem_of_map_to_list, elem_of_list_In. eapply Permutation_in; [apply sort_by_key_perm|exact Hin]. }
  rewrite E. eapply Permutation_NoDup; [apply Permutation_map; symmetry; apply sort_by_key_perm|].
  apply NoDup_ListNoDup. apply NoDup_fst_map_to_list.
Qed.

Theorem txkeyed_key_pairs s : TxKeyed s -> NoDup (key_pairs (sorted_txs s)).
Proof. intros K. apply hashes_key_pairs, txkeyed_hashes, K. Qed.

Section Batch.
Variable SO : stf_oracle.
Variable s : wstate.
Variable lh : header.
Variable txs : list tx.
Variable s' : wstate.
Hypothesis Hacc : apply_tx_batch SO s lh txs = Ok s'.
Hypothesis HK : HashOK SO s txs.
Hypothesis Hmold : forall t t', In t txs -> In t' (sorted_txs s) -> so_faucet_marker SO (t_hash t) <> t_hash t'.

Lemma batch_declared_at t i c :
  TxKeyed s -> In t (sorted_txs s') -> i < 256 -> s_coins s' !! coin_key (t_hash t) i = Some c ->
  as_declared t c (nth (N.to_nat i) (t_outputs t) dflt_cd) \/
  (In t (sorted_txs s) /\ s_coins s !! coin_key (t_hash t) i = Some c).
Proof.
  intros K Ht Hi Hc. destruct (batch_filed_coin SO s lh txs s' Hacc Hmold t i c K Ht Hi Hc) as [Hb|Hold]; [left|right; exact Hold].
  destruct (batch_coin_at_output_data SO s lh txs s' Hacc HK Hmold t i c Hb Hi Hc) as (_ & _ & V & E).
  split; [exact E|exact V].
Qed.

Lemma batch_declared : TxKeyed s -> Declared s -> Declared s'.
Proof.
  intros K D t Ht. split; intros c Hc.
  - destruct (batch_declared_at t 0 c K Ht ltac:(lia) Hc) as [A|[Hts Hc0]]; [exact A|exact (proj1 (D t Hts) c Hc0)].
  - destruct (batch_declared_at t 1 c K Ht ltac:(lia) Hc) as [A|[Hts Hc1]]; [exact A|exact (proj2 (D t Hts) c Hc1)].
Qed.
End Batch.

Lemma next_unsealed_declared s hdr : Declared (next_unsealed s hdr).
Proof. intros t Ht. destruct (next_unsealed_no_txs s hdr t Ht). Qed.

Section History.
Variable SO : stf_oracle.

Definition Good2 (s : wstate) : Prop := Good s /\ Declared s.

Lemma hstep_declared : forall s o, Declared s -> Good s /\ step_ok SO s o -> Declared (hstep SO s o).
Proof.
  apply (hstep_cases SO Declared (fun s o => Good s /\ step_ok SO s o)).
  - intros s lh txs s' D [G [HK Hm]] E. exact (batch_declared SO s lh txs s' E HK Hm (proj1 G) D).
  - intros s a hdr s' _ _ _. apply next_unsealed_declared.
Qed.

Lemma hstep_good2 s o : Good2 s -> step_ok SO s o -> Good2 (hstep SO s o).
Proof.
  intros [G D] Hok. split; [exact (hstep_good SO s o G Hok)|exact (hstep_declared s o D (conj G Hok))].
Qed.

Theorem history_good2 : forall ops s, Good2 s -> hist_ok SO s ops -> Good2 (fold_left (hstep SO) ops s).
Proof. exact (history_invariant SO Good2 (step_ok SO) hstep_good2). Qed.

Corollary history_declared ops s :
  Good2 s -> hist_ok SO s ops ->
  let s1 := fold_left (hstep SO) ops s in
  NoDup (key_pairs (sorted_txs s1)) /\
  (forall t c, In t (sorted_txs s1) -> s_coins s1 !! key0 t = Some c -> as_declared t c (out0 t)) /\
  (forall t c, In t (sorted_txs s1) -> s_coins s1 !! key1 t = Some c -> as_declared t c (out1 t)).
Proof.
  intros G H s1. destruct (history_good2 ops s G H) as [(K & _) D]. fold s1 in K, D.
  split; [apply txkeyed_key_pairs; exact K|].
  split; intros t c Hin Hc; [apply (proj1 (D t Hin))|apply (proj2 (D t Hin))]; exact Hc.
Qed.
End History.

Lemma genesis_good2 net c fp m st : Good2 (genesis net c fp m st).
Proof.
  split; [apply genesis_good|]. intros t Ht. apply in_sorted_txs in Ht as (h & Hh). cbn in Hh.
  rewrite lookup_empty in Hh. discriminate.
Qed.

Lemma good2_def s : Good2 s <-> Good s /\ Declared s.
Proof. reflexivity. Qed.
