(* C09 for a whole batch: apply_tx_batch never panics, under HashOK (which keeps the counts consistent through the
   first pass), invariants of the state (consistent counts when TIP-906 is active, no header at or above the current
   height, every recorded DOSC speed positive) and arithmetic bounds (the inputs of a transaction sum to less than
   2^128 per denomination; the height is at most 3*10^6, where microergs_per_dosc has its closed form, and mint
   difficulties are at most 40, which together make a mint's nominal reward fit in 128 bits). *)
From MelVerif Require Import STF.Proofs.Tactics STF.Proofs.Stakes STF.Proofs.Faucet STF.Proofs.Coins
  STF.Proofs.Covenant STF.Proofs.Supply STF.Proofs.Counts STF.Proofs.Total STF.Proofs.HashFacts STF.Proofs.PermAccept.
From Coq Require Import ZifyN ZifyNat ZifyBool.
Open Scope N_scope.

Definition no_panic {A} (r : res A) : Prop := match r with Panic _ => False | _ => True end.

Lemma no_panic_bind {A B} (r : res A) (f : A -> res B) :
  no_panic r -> (forall a, r = Ok a -> no_panic (f a)) -> no_panic (a <- r ;; f a).
Proof. destruct r; cbn; auto. Qed.

Lemma assoc_add_no_panic d v : forall l, sum_of d l + v < U128 -> exists l', assoc_add d v l = Ok l'.
Proof.
  induction l as [|[d0 x] r IH]; intros H; cbn [assoc_add]; [eauto|].
  cbn [sum_of fold_right fst snd] in H. fold (sum_of d r) in H.
  destruct (denom_eqb d d0) eqn:E.
  - unfold add128. destruct (N.ltb_spec (x + v) U128); [cbn; eauto|lia].
  - destruct (IH H) as [r' ->]. cbn. eauto.
Qed.

(* calculate_reward: 1099511627776 is 2^40 and 1208925819614629174706176 is 2^80.  A difficulty of at most 40
   keeps the work and the speed (work / age) of a mint at or below 100 * 2^40, TIP-910 factor included, so the
   real reward is at most (100 * 2^40)^2 * 10^6 / 2880 < 10^10 * 2^80 *)
Lemma reward_bound w sp dsp :
  w <= 100 * 1099511627776 -> sp <= 100 * 1099511627776 -> 1 <= dsp ->
  to_u128_sat (w * sp * MICRO / (dsp * dsp * 2880)) <= 10000000000 * 1208925819614629174706176.
Proof.
  intros Hw Hs Hd.
  assert (Hx: w * sp * MICRO / (dsp * dsp * 2880) <= 10000000000 * 1208925819614629174706176).
  { assert (P: w * sp <= (100 * 1099511627776) * (100 * 1099511627776)) by (apply N.mul_le_mono; assumption).
    assert (Q: 1 <= dsp * dsp) by nia.
    apply N.div_le_upper_bound; [lia|]. unfold MICRO.
    assert (w * sp * 1000000 <= (100 * 1099511627776) * (100 * 1099511627776) * 1000000) by lia.
    set (X := dsp * dsp) in *. lia. }
  unfold to_u128_sat. destruct (N.ltb_spec (w * sp * MICRO / (dsp * dsp * 2880)) U128) as [|Hge]; [exact Hx|unfold U128 in Hge; lia].
Qed.

(* dosc_to_erg: up to height 3*10^6 a DOSC is worth at most 4 ERG, and 4 * 10^10 * 2^80 < 2^128 *)
Lemma erg_fits h rr : h <= 3000000 -> rr <= 10000000000 * 1208925819614629174706176 -> (MICRO + h) * rr / MICRO < U128.
Proof.
  intros Hh Hr. apply N.div_lt_upper_bound; [unfold MICRO; lia|]. unfold MICRO, U128.
  assert ((1000000 + h) * rr <= 4000000 * (10000000000 * 1208925819614629174706176)) by (apply N.mul_le_mono; lia). lia.
Qed.

Section NoPanic.
Variable SO : stf_oracle.
Variable s : wstate.
Variable lh : header.

Lemma check_inputs_no_panic relevant ns t : forall ins idx good inc,
  keys_nodup inc ->
  (forall d, sum_of d inc + in_sum relevant d ins < U128) ->
  no_panic (check_inputs SO s lh relevant ns t idx ins good inc).
Proof.
  induction ins as [|i ins IH]; intros idx good inc Hn Hb; cbn [check_inputs]; [exact I|].
  apply no_panic_bind.
  - unfold check_input. destruct (coin_locked s ns (fst i)); [exact I|].
    destruct (relevant !! input_key i) as [c|] eqn:Ec; [|exact I].
    apply no_panic_bind.
    + destruct (existsb _ good); [exact I|]. destruct (find_script _ _ _); [|exact I].
      destruct (decode_all _); [|exact I]. destruct (covenant_accepts _ _ _); exact I.
    + intros g _. destruct (assoc_add_no_panic (cd_denom (c_data c)) (cd_value (c_data c)) inc) as [l' ->]; [|exact I].
      specialize (Hb (cd_denom (c_data c))). cbn [in_sum fold_right] in Hb. rewrite Ec, denom_eqb_refl in Hb.
      fold (in_sum relevant (cd_denom (c_data c)) ins) in Hb. lia.
  - intros [good1 inc1] Hgi. cbn [fst snd].
    destruct (check_input_spec _ _ _ _ _ _ _ _ _ _ _ _ Hgi) as (_ & c & Ec & Hinc & _).
    destruct (assoc_add_spec _ _ _ _ Hinc Hn) as (Hn' & Hs' & _).
    apply IH; [exact Hn'|]. intros d. rewrite Hs'. specialize (Hb d). cbn [in_sum fold_right] in Hb. rewrite Ec in Hb.
    fold (in_sum relevant d ins) in Hb. destruct (denom_eqb d (cd_denom (c_data c))); lia.
Qed.

Lemma check_tx_validity_no_panic relevant ns t :
  totals_fit t = true ->
  (forall d, in_sum relevant d (t_inputs t) < U128) ->
  no_panic (check_tx_validity SO s lh relevant ns t).
Proof.
  intros Hfit Hb. unfold check_tx_validity. apply no_panic_bind.
  - apply check_inputs_no_panic; [exact I|]. intros d. cbn. apply Hb.
  - intros inc _. destruct (totals_fit_no_overflow t Hfit) as ((outs & ->) & _). cbn [obind].
    unfold check_balanced. destruct (txkind_eqb _ _); [exact I|]. destruct (forallb _ _); exact I.
Qed.

Lemma assoc_add_has d v : forall l l', assoc_add d v l = Ok l' -> exists x, In (d, x) l'.
Proof.
  induction l as [|[d0 x0] r IH]; intros l' H; cbn [assoc_add] in H.
  - injection H as <-. exists v. left. reflexivity.
  - destruct (denom_eqb d d0) eqn:E.
    + inv_bind H as sm Hs. injection H as <-. apply denom_eqb_eq in E. subst d0. exists sm. left. reflexivity.
    + inv_bind H as r' Hr. injection H as <-. destruct (IH _ Hr) as [x Hx]. exists x. right. exact Hx.
Qed.

(* an accepted non-faucet transaction has an input: its fee is MEL that must come from somewhere *)
Lemma valid_tx_has_inputs relevant ns t :
  check_tx_validity SO s lh relevant ns t = Ok tt -> t_kind t <> KFaucet -> t_inputs t <> [].
Proof.
  unfold check_tx_validity. intros H Hk E. rewrite E in H. cbn [check_inputs obind] in H.
  inv_bind H as outs Ho. unfold check_balanced in H.
  destruct (txkind_eqb (t_kind t) KFaucet) eqn:Ef; [apply txkind_eqb_eq in Ef; contradiction|].
  destruct (forallb _ outs) eqn:Fa; [|discriminate].
  unfold total_outputs in Ho. inv_bind Ho as acc Ha. destruct (assoc_add_has _ _ _ _ Ho) as [x Hx].
  rewrite forallb_forall in Fa. specialize (Fa _ Hx). cbn in Fa. rewrite andb_false_r in Fa. discriminate.
Qed.

(* the recorded headers are those of earlier heights (so the seed of a mint is older than the state: no division
   by zero in the speed) and none records the speed 0 (no division by zero in the reward) *)
Definition HistOK : Prop := forall h hd, s_history s !! h = Some hd -> h < s_height s /\ 0 < h_dosc_speed hd.
(* validation admits difficulties up to 64; [reward_bound] needs 2^d <= 2^40 *)
Definition mint_small (t : tx) : Prop := forall d pid, t_dosc t = DDProof d pid -> d <= 40.

Lemma validate_doscmint_no_panic relevant t :
  t_inputs t <> [] -> HistOK -> s_height s <= 3000000 -> mint_small t -> totals_fit t = true ->
  no_panic (validate_doscmint SO s relevant t).
Proof.
  intros Hin Hh Hht Hsm Hfit. unfold validate_doscmint.
  destruct (t_inputs t) as [|i0 rest]; [contradiction|].
  destruct (relevant !! input_key i0) as [c|]; [|exact I].
  destruct (_ && _); [exact I|].
  destruct (s_history s !! c_height c) as [seed|] eqn:Es; [|exact I].
  destruct (Hh _ _ Es) as [Hlt _].
  destruct (t_dosc t) as [| |difficulty pid] eqn:Ed; try exact I.
  specialize (Hsm difficulty pid Ed).
  destruct ((difficulty =? 0) || (64 <? difficulty)); [exact I|].
  destruct (so_melpow SO pid (so_header_hash SO seed) (input_key i0) difficulty) eqn:Ev; [exact I| |].
  (* two goals: a proof valid under the legacy hash (work 2^d) and one valid under TIP-910 (work 100 * 2^d); they
     pass the same panic sites and differ only where the bound on the work is shown *)
  all: destruct (N.leb_spec 128 difficulty); [lia|].
  all: assert (P40: 2 ^ difficulty <= 2 ^ 40) by (apply N.pow_le_mono_r; [discriminate|exact Hsm]).
  all: change (2 ^ 40) with 1099511627776 in P40.
  all: match goal with |- context [U128 <=? ?w] => destruct (N.leb_spec U128 w) as [Hw|Hw]; [unfold U128 in Hw; lia|] end.
  all: destruct (N.eqb_spec (s_height s - c_height c) 0); [lia|].
  all: destruct (N.eqb_spec (s_height s) 0); [lia|].
  all: destruct (s_history s !! (s_height s - 1)) as [prev|] eqn:Ep; [|exact I].
  all: destruct (Hh _ _ Ep) as [_ Hsp].
  all: unfold calculate_reward; destruct (N.leb_spec 128 difficulty); [lia|].
  all: destruct (N.eqb_spec (h_dosc_speed prev) 0); [lia|]; cbn [obind].
  all: match goal with |- context [to_u128_sat (?w * ?sp * MICRO / ?q)] =>
         assert (Hrr: to_u128_sat (w * sp * MICRO / q) <= 10000000000 * 1208925819614629174706176);
         [apply reward_bound; [|apply N.div_le_upper_bound; [lia|]; nia|lia]|] end.
  (* the bound on the work: 2^d in the first goal, sat_mul128 (2^d) 100 in the second *)
  1: lia.
  2: { unfold sat_mul128, MAX128, U128. lia. }
  all: match goal with |- context [to_u128_sat ?x] => set (rr := to_u128_sat x) in * end.
  all: unfold dosc_to_erg, microergs_per_dosc.
  all: destruct (N.leb_spec (s_height s) 3000000); [|lia].
  all: pose proof (erg_fits (s_height s) rr Hht Hrr) as Hfits.
  all: destruct (N.ltb_spec ((MICRO + s_height s) * rr / MICRO) U128); [|lia].
  all: cbn [obind]; destruct (totals_fit_no_overflow t Hfit) as ((outs & ->) & _); cbn [obind]; destruct (_ <? _); exact I.
Qed.

Lemma first_error_no_panic {A B} (f : A -> res B) : forall l, (forall x, In x l -> no_panic (f x)) -> no_panic (first_error (map f l)).
Proof.
  induction l as [|x l IH]; intros H; cbn [map first_error]; [exact I|].
  pose proof (H x (or_introl eq_refl)) as Hx. destruct (f x); [|exact I|contradiction].
  apply IH. intros y Hy. apply H. right. exact Hy.
Qed.

Lemma load_relevant_no_panic txs : no_panic (load_relevant_coins s txs).
Proof.
  unfold load_relevant_coins. destruct (negb _); [exact I|]. apply no_panic_bind.
  - generalize (∅ : gmap N cdh) as m. induction (all_inputs txs) as [|k ks IH]; intros m; cbn [lookup_inputs]; [exact I|].
    destruct (batch_outputs (s_height s) txs !! k); [apply IH|]. destruct (s_coins s !! k); [apply IH|exact I].
  - intros ins _. destruct (dup_free _ _); exact I.
Qed.

Lemma insert_all_no_panic relevant tip : forall txs cn, no_panic (insert_all SO s relevant tip txs cn).
Proof.
  induction txs as [|t txs IH]; intros cn; cbn [insert_all]; [exact I|]. apply no_panic_bind; [|intros; apply IH].
  unfold insert_outputs. apply no_panic_bind; [|intros; exact I].
  destruct (txkind_eqb _ _); [|exact I]. unfold handle_faucet. destruct (_ && _); [exact I|].
  destruct (fst cn !! _); [exact I|]. destruct (is_bug_tx t); exact I.
Qed.

Lemma spend_all_no_panic tip : forall txs n,
  (tip = true -> CountsOk (s_coins n, s_counts n)) -> (forall t, In t txs -> totals_fit t = true) ->
  no_panic (spend_all tip txs n).
Proof.
  induction txs as [|t txs IH]; intros n Hok Hfit; cbn [spend_all]; [exact I|].
  apply no_panic_bind.
  - unfold spend_and_pay.
    rewrite (remove_coins_char tip _ (s_coins n, s_counts n) Hok). cbn [obind].
    destruct (totals_fit_no_overflow t (Hfit t (or_introl eq_refl))) as (_ & _ & Hm). destruct (Hm (s_fee_mult n)) as [mf ->].
    cbn [obind]. destruct (_ <? _); exact I.
  - intros n1 H1. apply IH; [|intros t' Ht'; apply Hfit; right; exact Ht'].
    intros ->. apply (spend_all_counts_ok [t] n n1 (Hok eq_refl)). cbn [spend_all]. rewrite H1. reflexivity.
Qed.

Theorem apply_tx_batch_never_panics txs :
  HashOK SO s txs ->
  (tip_906 s = true -> CountsOk (s_coins s, s_counts s)) ->
  HistOK -> s_height s <= 3000000 ->
  (forall t, In t txs -> mint_small t) ->
  (forall relevant t d, load_relevant_coins s txs = Ok relevant -> In t txs -> in_sum relevant d (t_inputs t) < U128) ->
  no_panic (apply_tx_batch SO s lh txs).
Proof.
  intros HK Hcnt Hh Hht Hsm Hsum. unfold apply_tx_batch.
  apply no_panic_bind; [apply load_relevant_no_panic|]. intros relevant Hrel.
  destruct (load_relevant_coins_spec _ _ _ Hrel) as (Hwf & _).
  rewrite load_stake_info_spec. destruct (forallb (stake_tx_ok s) txs); [|exact I]. cbn [obind].
  apply no_panic_bind.
  { apply first_error_no_panic. intros t Ht. apply check_tx_validity_no_panic; [apply (Hwf t Ht)|].
    intros d. apply (Hsum relevant t d Hrel Ht). }
  intros [] Hval. pose proof (proj1 (first_error_map_ok _ _) Hval) as Hv.
  apply no_panic_bind.
  { apply first_error_no_panic. intros t Ht. apply filter_In in Ht as [Ht Hk].
    destruct (Hv t Ht) as [[] Hvt].
    apply validate_doscmint_no_panic; [|exact Hh|exact Hht|apply Hsm; exact Ht|apply (Hwf t Ht)].
    apply (valid_tx_has_inputs relevant _ t Hvt). destruct (t_kind t); cbn in Hk; discriminate. }
  intros [] _. apply no_panic_bind; [|intros; exact I].
  unfold create_next_state. apply no_panic_bind; [apply insert_all_no_panic|].
  intros cn Hcn. apply spend_all_no_panic; [|intros t Ht; apply (Hwf t Ht)].
  intros Htip. cbn [s_coins s_counts set_coins]. rewrite <- surjective_pairing.
  rewrite (insert_all_pairs _ _ _ _ _ _ _ Hcn), Htip.
  apply ins_pairs_counts_ok; [apply Hcnt; exact Htip|apply (batch_inserts_nodup SO s _ _ HK (load_relevant_short _ _ _ Hrel))|].
  cbn [fst]. apply (hk_inserts_fresh SO s relevant txs HK).
  intros t Ht. apply (proj2 (insert_all_spec _ _ _ _ _ _ _ Hcn) t Ht).
Qed.
End NoPanic.
