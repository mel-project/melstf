(* C20 through sealing: the per-covenant counts stay equal to the number of coins while Melswap settlement
   rewrites request outputs, deletes deposit outputs and the proposer reward is paid.
   The invariant that makes this true relates the coins at the output ids of this block's transactions to
   those transactions (a rewritten output keeps its covenant hash, so no count moves). *)
From MelVerif Require Import STF.Proofs.Tactics STF.Proofs.Frame STF.Proofs.Counts STF.Proofs.SealSteps
  STF.Proofs.SealCoins STF.Proofs.HashFacts.
From Coq Require Import ZifyN ZifyNat ZifyBool.
Open Scope N_scope.

Definition CInv (s : wstate) : Prop :=
  if tip_906 s then CountsOk (s_coins s, s_counts s) else s_counts s = ∅.

Definition cov0 (t : tx) : N := cd_covhash (out0 t).
(* for a one-output transaction a coin at id 1 can only be the second half of its settled withdrawal *)
Definition cov1 (t : tx) : N :=
  if N.of_nat (length (t_outputs t)) =? 1 then cd_covhash (out0 t) else cd_covhash (out1 t).

Definition TxKeyed (s : wstate) : Prop := forall h t, s_txs s !! h = Some t -> t_hash t = h.
Definition OutCov (s : wstate) : Prop := forall t, In t (sorted_txs s) ->
  (forall c, s_coins s !! key0 t = Some c -> cd_covhash (c_data c) = cov0 t) /\
  (forall c, s_coins s !! key1 t = Some c -> cd_covhash (c_data c) = cov1 t).

Definition Good (s : wstate) : Prop := TxKeyed s /\ CInv s /\ OutCov s.

Lemma frame_txs a b : frame a = frame b -> s_txs a = s_txs b.
Proof. unfold frame. congruence. Qed.

Lemma txkeyed_in s t t' : TxKeyed s -> In t (sorted_txs s) -> In t' (sorted_txs s) -> t_hash t = t_hash t' -> t = t'.
Proof.
  intros K H1 H2 E. apply in_sorted_txs in H1 as (h1 & H1). apply in_sorted_txs in H2 as (h2 & H2).
  pose proof (K _ _ H1) as E1. pose proof (K _ _ H2) as E2. congruence.
Qed.

Lemma cinv_put_coin s k c :
  CInv s -> (forall c', s_coins s !! k = Some c' -> cd_covhash (c_data c') = cd_covhash (c_data c)) ->
  CInv (put_coin s k c).
Proof.
  intros H Hs. unfold CInv in *.
  assert (T: tip_906 (put_coin s k c) = tip_906 s) by reflexivity.
  rewrite T. unfold put_coin. cbn [s_coins s_counts set_coins].
  destruct (tip_906 s).
  - rewrite <- surjective_pairing. apply insert_coin_counts_ok; assumption.
  - rewrite insert_coin_false_counts. exact H.
Qed.

Lemma cinv_put_pool s k p : CInv s -> CInv (put_pool s k p).
Proof. intros H. exact H. Qed.

Lemma del_coin_total s k : CInv s -> exists s', del_coin s k = Ok s'.
Proof.
  unfold CInv, del_coin. intros H. destruct (tip_906 s) eqn:T.
  - destruct (remove_coin_counts_ok k _ H) as (r & -> & _). eexists. reflexivity.
  - cbn. eexists. reflexivity.
Qed.

Lemma cinv_del_coin s k s' : CInv s -> del_coin s k = Ok s' -> CInv s'.
Proof.
  intros H Hd. assert (F: tip_906 s' = tip_906 s) by (apply del_coin_inv in Hd as [counts ->]; reflexivity).
  unfold CInv in *. rewrite F. unfold del_coin in Hd. inv_bind Hd as cn Hcn. injection Hd as <-.
  cbn [s_coins s_counts set_coins]. destruct (tip_906 s).
  - destruct (remove_coin_counts_ok k _ H) as (r & E & Hr). rewrite E in Hcn. injection Hcn as <-.
    rewrite <- surjective_pairing. exact Hr.
  - cbn in Hcn. injection Hcn as <-. exact H.
Qed.

Lemma good_put_pool s k p : Good s -> Good (put_pool s k p).
Proof. intros H. exact H. Qed.

Lemma sorted_put_coin s k c : sorted_txs (put_coin s k c) = sorted_txs s.
Proof. reflexivity. Qed.

(* output i of a transaction of the block rewritten by a coin with that output's covenant hash: the only output
   id of the block that can hold the new coin is this one, since transactions are filed under their hashes *)
Lemma good_write s t i c :
  In t (sorted_txs s) -> i = 0 \/ i = 1 -> cd_covhash (c_data c) = (if i =? 0 then cov0 t else cov1 t) ->
  Good s -> Good (put_coin s (coin_key (t_hash t) i) c).
Proof.
  intros Ht Hi Hc (K & C & O). split; [exact K|]. split.
  - apply cinv_put_coin; [exact C|]. intros c' E. rewrite Hc. destruct Hi as [-> | ->]; apply (O t Ht); exact E.
  - intros t' Ht'. rewrite sorted_put_coin in Ht'. rewrite coins_put_coin_eq.
    assert (W: forall j c0, j = 0 \/ j = 1 -> <[coin_key (t_hash t) i := c]> (s_coins s) !! coin_key (t_hash t') j = Some c0 ->
               s_coins s !! coin_key (t_hash t') j = Some c0 \/ t' = t /\ j = i /\ c0 = c).
    { intros j c0 Hj E. destruct (N.eq_dec (coin_key (t_hash t') j) (coin_key (t_hash t) i)) as [Ek|Hne].
      - right. rewrite Ek, lookup_insert in E. injection E as <-. apply coin_key_inj in Ek as [Eh Ej]; [|lia..].
        split; [exact (txkeyed_in s t' t K Ht' Ht Eh)|auto].
      - left. rewrite lookup_insert_ne in E by congruence. exact E. }
    split; intros c0 E.
    + destruct (W 0 c0 (or_introl eq_refl) E) as [E0|(-> & <- & ->)]; [apply (O t' Ht'); exact E0|exact Hc].
    + destruct (W 1 c0 (or_intror eq_refl) E) as [E0|(-> & <- & ->)]; [apply (O t' Ht'); exact E0|exact Hc].
Qed.

Lemma good_del s k s' : Good s -> del_coin s k = Ok s' -> Good s'.
Proof.
  intros (K & C & O) Hd. split; [|split; [eapply cinv_del_coin; eauto|]]; apply del_coin_inv in Hd as [counts ->].
  - exact K.
  - intros t Ht. cbn [s_coins set_coins]. split; intros c [_ E]%lookup_delete_Some; apply (O t Ht); exact E.
Qed.

Section Seal.
Variable SO : stf_oracle.

Lemma good_swaps_go k lw rw tl tr : forall l s,
  (forall t, In t l -> In t (sorted_txs s)) -> Good s -> Good (swaps_go k lw rw tl tr l s).
Proof.
  induction l as [|t rest IH]; intros s Hl G; cbn [swaps_go]; [exact G|].
  apply IH.
  - intros t' Ht'. rewrite sorted_put_coin. apply Hl. right. exact Ht'.
  - apply good_write; [apply Hl; left; reflexivity|left; reflexivity|reflexivity|exact G].
Qed.

(* the loop over the deposits of a pool cannot fail: deleting output 1 finds the counts in order *)
Lemma deposits_go_total k tl tm : forall l left s,
  (forall t, In t l -> In t (sorted_txs s)) -> Good s ->
  exists s', deposits_go SO k tl tm l left s = Ok s' /\ Good s'.
Proof.
  induction l as [|t rest IH]; intros left s Hl G; cbn [deposits_go]; [eauto|].
  match goal with |- context [put_coin s ?kk ?cc] => set (s1 := put_coin s kk cc) end.
  assert (G1: Good s1) by (apply (good_write s t 0); [apply Hl; left; reflexivity|left; reflexivity|reflexivity|exact G]).
  assert (Hs2: exists s2, (if legacy_net s && (s_height s <? 978392) then Ok s1 else del_coin s1 (coin_key (t_hash t) 1)) = Ok s2
                          /\ Good s2 /\ s_txs s2 = s_txs s).
  { destruct (legacy_net s && (s_height s <? 978392)).
    - exists s1. split; [reflexivity|]. split; [exact G1|reflexivity].
    - destruct (del_coin_total s1 (coin_key (t_hash t) 1)) as (s2 & E2); [apply G1|].
      exists s2. split; [exact E2|]. split; [eapply good_del; eauto|]. apply del_coin_inv in E2 as [counts ->]. reflexivity. }
  destruct Hs2 as (s2 & E2 & G2 & T2). rewrite E2. cbn [obind].
  apply IH; [|exact G2]. intros t' Ht'. rewrite (txs_same _ _ T2). apply Hl. right. exact Ht'.
Qed.

Lemma good_deposits_go k tl tm l left s s' :
  (forall t, In t l -> In t (sorted_txs s)) -> Good s -> deposits_go SO k tl tm l left s = Ok s' -> Good s'.
Proof.
  intros Hl G H. destruct (deposits_go_total k tl tm l left s Hl G) as (s2 & E & G2).
  rewrite E in H. injection H as <-. exact G2.
Qed.

Lemma good_withdrawals_go k tl tr total : forall l s,
  (forall t, In t l -> In t (sorted_txs s) /\ N.of_nat (length (t_outputs t)) = 1) -> Good s ->
  Good (withdrawals_go k tl tr total l s).
Proof.
  induction l as [|t rest IH]; intros s Hl G; cbn [withdrawals_go]; [exact G|].
  destruct (Hl t (or_introl eq_refl)) as [Ht Hlen].
  apply IH.
  - intros t' Ht'. rewrite !sorted_put_coin. apply Hl. right. exact Ht'.
  - apply good_write; [rewrite sorted_put_coin; exact Ht|right; reflexivity| |].
    + unfold cov1. rewrite Hlen. reflexivity.
    + apply good_write; [exact Ht|left; reflexivity|reflexivity|exact G].
Qed.

Lemma good_for_pools (P : tx -> Prop) f reqs :
  (forall k s txs s', f k s txs = Ok s' -> touches k txs s s') ->
  (forall k s txs s', (forall t, In t txs -> In t (sorted_txs s) /\ P t) -> Good s -> f k s txs = Ok s' -> Good s') ->
  forall keys s s', (forall t, In t reqs -> In t (sorted_txs s) /\ P t) -> Good s ->
    for_pools f reqs keys s = Ok s' -> Good s'.
Proof.
  intros Hfr Hf keys s s' Hr G H.
  refine (proj2 (for_pools_invariant f reqs (fun _ s1 => (forall t, In t reqs -> In t (sorted_txs s1) /\ P t) /\ Good s1)
                   _ keys s s' (conj Hr G) H)).
  intros k _ s1 s2 [Hr1 G1] H1. split.
  - intros t Ht. rewrite (txs_same _ _ (frame_fp_txs _ _ (proj1 (Hfr _ _ _ _ H1)))). apply Hr1, Ht.
  - eapply Hf; [|exact G1|exact H1]. intros t Ht. eapply Hr1, txs_for_pool_sub, Ht.
Qed.

Lemma good_process_swaps s s' : Good s -> process_swaps s = Ok s' -> Good s'.
Proof.
  intros G H. unfold process_swaps in H.
  eapply (good_for_pools (fun _ => True)); [apply swaps_single_pool_touches| | |exact G|exact H].
  - intros k s0 txs s1 Hsub G0 (p & p' & lw & rw & _ & _ & ->)%swaps_single_pool_inv.
    apply good_put_pool. apply good_swaps_go; [|exact G0]. intros t Ht. apply Hsub. exact Ht.
  - intros t Ht. apply filter_In in Ht as [Ht _]. split; [exact Ht|exact I].
Qed.

Lemma good_process_deposits s s' : Good s -> process_deposits SO s = Ok s' -> Good s'.
Proof.
  intros G H. unfold process_deposits in H.
  eapply (good_for_pools (fun _ => True)); [apply deposits_single_pool_touches| | |exact G|exact H].
  - intros k s0 txs s1 Hsub G0 (p' & m & _ & H0)%deposits_single_pool_inv.
    eapply good_deposits_go; [|apply good_put_pool; exact G0|exact H0].
    intros t Ht. apply Hsub. exact Ht.
  - intros t Ht. apply filter_In in Ht as [Ht _]. split; [exact Ht|exact I].
Qed.

Lemma good_process_withdrawals s s' : Good s -> process_withdrawals SO s = Ok s' -> Good s'.
Proof.
  intros G H. unfold process_withdrawals in H.
  eapply (good_for_pools (fun t => N.of_nat (length (t_outputs t)) = 1)); [apply withdrawals_single_pool_touches| | |exact G|exact H].
  - intros k s0 txs s1 Hsub G0 (p & _ & H0)%withdrawals_single_pool_inv.
    destruct (_ || _); [subst s1; exact G0|]. destruct H0 as (p' & a & b & _ & ->).
    apply good_withdrawals_go; [|apply good_put_pool; exact G0]. intros t Ht. apply Hsub. exact Ht.
  - intros t Ht. apply filter_In in Ht as [Ht Hr]. split; [exact Ht|apply (withdraw_request_spec SO s t Hr)].
Qed.

(* [Good] reads the coins, the counts, the network, the height and the transaction set: writing pools, fees or the
   multiplier keeps it by conversion *)
Lemma good_preseal s s' : Good s -> preseal_melmint SO s = Ok s' -> Good s'.
Proof.
  intros G (s1 & s2 & s3 & H1 & H2 & H3 & H)%preseal_inv.
  destruct (create_builtins_set s) as [m Em]. rewrite Em in H1.
  pose proof (good_process_swaps _ _ (G : Good (set_pools s m)) H1) as G1.
  pose proof (good_process_deposits _ _ G1 H2) as G2.
  pose proof (good_process_withdrawals _ _ G2 H3) as G3.
  apply process_pegging_set in H as [m' ->]. exact G3.
Qed.

(* the whole seal: the counts stay right provided the proposer-reward pseudo coin id is new (a hash-oracle
   assumption: CoinID::proposer_reward(height) is a keyed hash of the height) *)
Theorem seal_counts s a s' :
  Good s -> seal SO s a = Ok s' ->
  (a <> None -> s_coins s !! coin_key (so_reward_id SO (s_height s)) 0 = None /\
                forall t, In t (sorted_txs s) -> so_reward_id SO (s_height s) <> t_hash t) ->
  CInv s' /\ TxKeyed s'.
Proof.
  intros G (s1 & s2 & H1 & Ep & H2 & H)%seal_inv Hrw.
  pose proof (good_preseal _ _ G H1) as G1.
  assert (G2: Good s2).
  { destruct (tip_909 s1); [apply apply_tip_909_set in H2 as (m & fp & ->)|injection H2 as <-]; exact G1. }
  destruct a as [act|]; [|subst s'; destruct G2 as (K & C & _); split; assumption].
  destruct (Hrw ltac:(discriminate)) as [Hfresh Hne].
  assert (Hs2: seal SO s None = Ok s2) by (apply seal_inv; exists s1, s2; auto).
  assert (Hh: s_height s2 = s_height s) by (apply seal_frame in Hs2; tauto).
  assert (Hk: s_coins s2 !! coin_key (so_reward_id SO (s_height s)) 0 = None).
  { rewrite (seal_leaves_other_coins_gen SO s None s2 _ Hs2); [exact Hfresh| |intros Hc; exfalso; apply Hc; reflexivity].
    intros t Ht _. unfold key0, key1. split; intros E; apply coin_key_inj in E as [E _]; try lia; exact (Hne t Ht E). }
  unfold collect_proposer_fee in H. inv_bind H as v Hv. injection H as <-.
  match goal with |- CInv (put_coin ?m _ _) /\ _ => set (sm := m) end.
  destruct (G2 : Good sm) as (K & C & _). split; [|exact K].
  apply cinv_put_coin; [exact C|]. intros c' E. exfalso.
  cbn [s_height set_fees set_mult] in E. rewrite Hh in E.
  change (s_coins sm) with (s_coins s2) in E. rewrite Hk in E. discriminate.
Qed.
End Seal.
