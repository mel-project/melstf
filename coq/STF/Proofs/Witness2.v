(* Non-vacuity witnesses for the per-pool settlement theorems of STF/Proofs/SealSupply.v: a concrete pool with
   one swap, one deposit and one withdrawal whose request coins are as declared. *)
From MelVerif Require Import STF.Proofs.Tactics STF.Proofs.Pool STF.Proofs.SealCoins STF.Proofs.SealSupply
  STF.Proofs.Witness.
Open Scope N_scope.

Definition w_key : denom * denom := poolkey_new Mel Sym.
Definition w_liq : denom := Custom (so_liq_denom w_oracle (poolkey_code w_key)).
Definition w_pool : pool := {| p_lefts := 1000000; p_rights := 2000000; p_accum := 0; p_liqs := 1000000 |}.

Definition w_req (k : txkind) (outs : list coindata) (h : N) : tx :=
  {| t_kind := k; t_inputs := []; t_outputs := outs; t_fee := 0; t_covenants := []; t_data := poolkey_bytes w_key;
     t_sigs := []; t_hash := h; t_fullhash := h; t_rawlen := 100; t_covhashes := [];
     t_stakedoc := None; t_poolkey := Some w_key; t_dosc := DDNone |}.

Definition w_swap : tx := w_req KSwap [w_out 5000 Mel] 21.
Definition w_dep : tx := w_req KLiqDeposit [w_out 3000 (fst w_key); w_out 6000 (snd w_key)] 22.
Definition w_wd : tx := w_req KLiqWithdraw [w_out 400 w_liq] 23.

Definition w_coin (o : coindata) : cdh := {| c_data := o; c_height := 5 |}.
Definition w_seal_state : wstate :=
  {| s_network := 2; s_height := 5; s_history := ∅;
     s_coins := list_to_map [(key0 w_swap, w_coin (out0 w_swap)); (key0 w_dep, w_coin (out0 w_dep)); (key1 w_dep, w_coin (out1 w_dep));
                             (key0 w_wd, w_coin (out0 w_wd))];
     s_counts := list_to_map [(w_true_hash, 4)]; s_txs := ∅; s_fee_pool := 1000; s_fee_mult := 100; s_tips := 0; s_dosc_speed := 1;
     s_pools := list_to_map [(poolkey_code w_key, w_pool)]; s_stakes := ∅ |}.

Lemma w_sides : fst w_key <> snd w_key /\ w_liq <> fst w_key /\ w_liq <> snd w_key.
Proof. vm_compute. repeat split; discriminate. Qed.

Lemma w_swap_ok :
  (exists s', swaps_single_pool w_key w_seal_state [w_swap] = Ok s') /\
  NoDup (map key0 [w_swap]) /\
  (forall t, In t [w_swap] -> declared0 w_seal_state t /\ (cd_denom (out0 t) = fst w_key \/ cd_denom (out0 t) = snd w_key)) /\
  nsum (map (fun t => cd_value (out0 t)) [w_swap]) < U128.
Proof.
  split; [apply accepted_ex; vm_compute; reflexivity|]. split; [repeat constructor; intros []|].
  split; [|vm_compute; reflexivity].
  intros t [<-|[]]. split; [|left; reflexivity]. eexists. split; [vm_compute; reflexivity|]. split; reflexivity.
Qed.

Lemma w_withdraw_ok :
  (exists s', withdrawals_single_pool w_key w_seal_state [w_wd] = Ok s') /\
  get_pool w_seal_state w_key = Some w_pool /\ p_lefts w_pool < U128 /\ p_rights w_pool < U128 /\
  NoDup (flat_map (fun t => [key0 t; key1 t]) [w_wd]) /\
  (forall t, In t [w_wd] -> declared0 w_seal_state t /\ cd_denom (out0 t) = w_liq) /\
  nsum (map (fun t => cd_value (out0 t)) [w_wd]) < U128.
Proof.
  split; [apply accepted_ex; vm_compute; reflexivity|]. split; [vm_compute; reflexivity|]. split; [vm_compute; reflexivity|].
  split; [vm_compute; reflexivity|]. split; [cbn; repeat constructor; cbn; intuition discriminate|].
  split; [|vm_compute; reflexivity].
  intros t [<-|[]]. split; [|reflexivity]. eexists. split; [vm_compute; reflexivity|]. split; reflexivity.
Qed.

Lemma w_deposit_ok :
  (exists s', deposits_single_pool w_oracle w_key w_seal_state [w_dep] = Ok s') /\
  legacy_net w_seal_state && (s_height w_seal_state <? 978392) = false /\
  NoDup (key_pairs [w_dep]) /\
  (forall t, In t [w_dep] -> declared0 w_seal_state t /\ declared1 w_seal_state t /\ cd_denom (out0 t) = fst w_key /\ cd_denom (out1 t) = snd w_key) /\
  nsum (map (fun t => cd_value (out0 t)) [w_dep]) < U128 /\ nsum (map (fun t => cd_value (out1 t)) [w_dep]) < U128 /\
  (forall p'' m, pool_deposit w_pool (nsum (map (fun t => cd_value (out0 t)) [w_dep])) (nsum (map (fun t => cd_value (out1 t)) [w_dep])) = Ok (p'', m) ->
                 p_liqs w_pool + m < U128).
Proof.
  split; [apply accepted_ex; vm_compute; reflexivity|]. split; [vm_compute; reflexivity|].
  split; [cbn; repeat constructor; cbn; intuition discriminate|].
  split.
  { intros t [<-|[]]. split; [eexists; split; [vm_compute; reflexivity|split; reflexivity]|].
    split; [eexists; split; [vm_compute; reflexivity|split; reflexivity]|]. split; reflexivity. }
  split; [vm_compute; reflexivity|]. split; [vm_compute; reflexivity|].
  intros p'' m H. apply N.ltb_lt. revert H.
  apply (passes_ok _ (fun r => p_liqs w_pool + snd r <? U128) (p'', m)). vm_compute. reflexivity.
Qed.
