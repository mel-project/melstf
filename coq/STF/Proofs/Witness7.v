(* The conclusion of [seal_pegged] evaluated on the concrete block of Witness3.v (a swap, a deposit and a
   withdrawal against the MEL/SYM pool), sealed as a whole: MEL and SYM stay within their caps. *)
From MelVerif Require Import STF.Proofs.Tactics STF.Proofs.SealLift STF.Proofs.SealPegged STF.Proofs.Witness
  STF.Proofs.Witness3 STF.Proofs.Witness4.
Open Scope N_scope.

Definition w_sealed : wstate := match seal w_oracle w_block_state None with Ok s => s | _ => w_block_state end.

Lemma w_sealed_ok : seal w_oracle w_block_state None = Ok w_sealed.
Proof. vm_compute. reflexivity. Qed.

Lemma w_pegged_mel :
  (held w_K3 Mel w_sealed <=? held w_K3 Mel w_block_state + bootstrap w_K3 Mel w_block_state + peg_cap w_block_state) = true.
Proof. vm_compute. reflexivity. Qed.

Lemma w_pegged_sym :
  (held w_K3 Sym w_sealed <=? held w_K3 Sym w_block_state + bootstrap w_K3 Sym w_block_state + peg_cap w_block_state + subsidy w_block_state) = true.
Proof. vm_compute. reflexivity. Qed.

(* how much the peg actually moved on this block (far below the cap) *)
Lemma w_pegged_actual :
  held w_K3 Mel w_sealed - (held w_K3 Mel w_block_state + bootstrap w_K3 Mel w_block_state) < 10 ^ 9 /\
  held w_K3 Sym w_sealed - (held w_K3 Sym w_block_state + bootstrap w_K3 Sym w_block_state) < 10 ^ 9 + 2 ^ 20.
Proof. vm_compute. split; reflexivity. Qed.
