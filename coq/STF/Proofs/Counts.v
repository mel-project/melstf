(* C20: per-covenant coin counts equal the number of unspent coins locked by that covenant hash. *)
From MelVerif Require Import STF.Proofs.Tactics STF.Proofs.Fees STF.Proofs.Faucet STF.Proofs.Coins.
From Coq Require Import ZifyN ZifyNat ZifyBool.
Open Scope N_scope.

Definition count_of (h : N) (coins : gmap N cdh) : N :=
  map_fold (fun _ c n => if cd_covhash (c_data c) =? h then n + 1 else n) 0 coins.

(* the invariant: a count entry for exactly the covenant hashes that lock at least one coin, with that number *)
Definition CountsOk (cn : gmap N cdh * gmap N N) : Prop :=
  forall h, snd cn !! h = if count_of h (fst cn) =? 0 then None else Some (count_of h (fst cn)).

Lemma count_of_empty h : count_of h ∅ = 0.
Proof. unfold count_of. apply map_fold_empty. Qed.

Lemma count_of_insert_fresh h k c coins :
  coins !! k = None ->
  count_of h (<[k := c]> coins) = (if cd_covhash (c_data c) =? h then count_of h coins + 1 else count_of h coins).
Proof.
  intros Hk. unfold count_of. rewrite map_fold_insert_L; [reflexivity| |exact Hk].
  intros j1 j2 z1 z2 y _ _ _. destruct (_ =? h); destruct (_ =? h); reflexivity.
Qed.

Lemma count_of_delete h k c coins :
  coins !! k = Some c ->
  count_of h coins = (if cd_covhash (c_data c) =? h then count_of h (delete k coins) + 1 else count_of h (delete k coins)).
Proof.
  intros Hk. rewrite <- (insert_delete coins k c Hk) at 1.
  apply count_of_insert_fresh. apply lookup_delete.
Qed.

Lemma count_of_overwrite h k c c' coins :
  coins !! k = Some c' -> cd_covhash (c_data c') = cd_covhash (c_data c) ->
  count_of h (<[k := c]> coins) = count_of h coins.
Proof.
  intros Hk E. rewrite <- (insert_delete_insert coins k c).
  rewrite count_of_insert_fresh by apply lookup_delete.
  rewrite (count_of_delete h k c' coins Hk), E. reflexivity.
Qed.

Lemma CountsOk_coin_count cn h : CountsOk cn -> coin_count (snd cn) h = count_of h (fst cn).
Proof.
  intros H. unfold coin_count. rewrite (H h). destruct (N.eqb_spec (count_of h (fst cn)) 0) as [->|]; reflexivity.
Qed.

Theorem insert_coin_counts_ok k c cn :
  CountsOk cn ->
  (forall c', fst cn !! k = Some c' -> cd_covhash (c_data c') = cd_covhash (c_data c)) ->
  CountsOk (insert_coin true k c cn).
Proof.
  intros Hok Hsame. destruct cn as [coins counts]. unfold insert_coin. cbn [fst snd] in *.
  destruct (coins !! k) as [c'|] eqn:Ek; cbn [andb negb]; intros h; cbn [fst snd].
  - rewrite (count_of_overwrite h k c c' coins Ek (Hsame c' eq_refl)). apply Hok.
  - rewrite (count_of_insert_fresh h k c coins Ek).
    pose proof (CountsOk_coin_count (coins, counts) (cd_covhash (c_data c)) Hok) as Ec. cbn [fst snd] in Ec. rewrite Ec.
    destruct (N.eqb_spec (cd_covhash (c_data c)) h) as [->|Hne].
    + rewrite lookup_insert. destruct (N.eqb_spec (count_of h coins + 1) 0); [lia|reflexivity].
    + rewrite lookup_insert_ne by exact Hne. apply Hok.
Qed.

Theorem remove_coin_counts_ok k cn :
  CountsOk cn -> exists r, remove_coin true k cn = Ok r /\ CountsOk r.
Proof.
  intros Hok. destruct cn as [coins counts]. unfold remove_coin.
  destruct (coins !! k) as [c|] eqn:Ek.
  - pose proof (CountsOk_coin_count (coins, counts) (cd_covhash (c_data c)) Hok) as Ec. cbn [fst snd] in Ec. rewrite Ec.
    pose proof (count_of_delete (cd_covhash (c_data c)) k c coins Ek) as Ed. rewrite N.eqb_refl in Ed.
    destruct (N.eqb_spec (count_of (cd_covhash (c_data c)) coins) 0) as [E0|Hne]; [lia|].
    eexists. split; [reflexivity|]. intros h. cbn [fst snd]. unfold set_count.
    pose proof (count_of_delete h k c coins Ek) as Edh.
    destruct (N.eqb_spec (cd_covhash (c_data c)) h) as [->|Hneh].
    + replace (count_of h coins - 1) with (count_of h (delete k coins)) by lia.
      destruct (N.eqb_spec (count_of h (delete k coins)) 0).
      * apply lookup_delete.
      * apply lookup_insert.
    + rewrite <- Edh.
      destruct (count_of (cd_covhash (c_data c)) coins - 1 =? 0);
        [rewrite lookup_delete_ne by exact Hneh|rewrite lookup_insert_ne by exact Hneh]; apply (Hok h).
  - eexists. split; [reflexivity|]. intros h. cbn [fst snd]. rewrite delete_notin by exact Ek. apply (Hok h).
Qed.

Corollary counts_no_entry_without_coins cn h : CountsOk cn -> count_of h (fst cn) = 0 -> snd cn !! h = None.
Proof. intros H E. rewrite (H h), E. reflexivity. Qed.

(* at the activation height the counts are initialised from the existing coin set *)
Theorem tip906_transition_counts_ok coins : CountsOk (coins, tip906_transition coins ∅).
Proof.
  unfold tip906_transition, CountsOk. cbn [fst snd].
  apply (map_fold_ind (fun r m => forall h, r !! h = if count_of h m =? 0 then None else Some (count_of h m))).
  - intros h. rewrite count_of_empty. cbn. apply lookup_empty.
  - intros k c m r Hk IH h. rewrite (count_of_insert_fresh h k c m Hk). unfold set_count, coin_count.
    assert (E: default 0 (r !! cd_covhash (c_data c)) = count_of (cd_covhash (c_data c)) m).
    { rewrite (IH (cd_covhash (c_data c))). destruct (N.eqb_spec (count_of (cd_covhash (c_data c)) m) 0) as [->|]; reflexivity. }
    rewrite E.
    destruct (N.eqb_spec (count_of (cd_covhash (c_data c)) m + 1) 0) as [E0|_]; [lia|].
    destruct (N.eqb_spec (cd_covhash (c_data c)) h) as [->|Hne].
    + rewrite lookup_insert. destruct (N.eqb_spec (count_of h m + 1) 0); [lia|reflexivity].
    + rewrite lookup_insert_ne by exact Hne. apply IH.
Qed.

(* the genesis state: one coin, one count *)
Example genesis_counts_ok k c :
  CountsOk (insert_coin true k c (∅, ∅)).
Proof.
  apply insert_coin_counts_ok.
  - intros h. cbn [fst snd]. rewrite count_of_empty. apply lookup_empty.
  - intros c' E. cbn [fst] in E. rewrite lookup_empty in E. discriminate.
Qed.

Section Batch.
Variable SO : stf_oracle.
Variable s : wstate.

Definition same_cov_or_fresh (cn : gmap N cdh * gmap N N) (k : N) (c : cdh) : Prop :=
  forall c', fst cn !! k = Some c' -> cd_covhash (c_data c') = cd_covhash (c_data c).

Lemma remove_coins_counts_ok : forall ks cn, CountsOk cn -> exists r, remove_coins true ks cn = Ok r /\ CountsOk r.
Proof.
  induction ks as [|k ks IH]; intros cn Hok; cbn [remove_coins]; [eauto|].
  destruct (remove_coin_counts_ok k cn Hok) as (r1 & -> & Hok1). cbn [obind]. apply IH. exact Hok1.
Qed.

Lemma remove_coins_keeps_counts ks cn r : CountsOk cn -> remove_coins true ks cn = Ok r -> CountsOk r.
Proof.
  intros Hok H. destruct (remove_coins_counts_ok ks cn Hok) as (r' & Hr & Hokr).
  rewrite H in Hr. injection Hr as <-. exact Hokr.
Qed.

Theorem spend_all_counts_ok : forall txs n n',
  CountsOk (s_coins n, s_counts n) -> spend_all true txs n = Ok n' -> CountsOk (s_coins n', s_counts n').
Proof.
  intros txs n n' Hok H. apply spend_all_ok in H as ([c k] & fp & tp & Hcn & _ & ->).
  exact (remove_coins_keeps_counts _ _ _ Hok Hcn).
Qed.

Lemma ins_pairs_counts_ok : forall l cn,
  CountsOk cn -> NoDup (map fst l) -> (forall k, In k (map fst l) -> fst cn !! k = None) ->
  CountsOk (ins_pairs true l cn).
Proof.
  induction l as [|[k c] l IH]; intros cn Hok Hnd Hfresh; cbn [ins_pairs fold_left fst snd]; [exact Hok|].
  fold (ins_pairs true l (insert_coin true k c cn)). cbn [map fst] in Hnd. inversion Hnd as [|? ? Hnk Hnd']; subst.
  apply IH.
  - apply insert_coin_counts_ok; [exact Hok|]. intros c' E. cbn [fst] in E. pose proof (Hfresh k ltac:(left; reflexivity)) as F. cbn [fst] in F. congruence.
  - exact Hnd'.
  - intros k' Hk'. rewrite insert_coin_fst. rewrite lookup_insert_ne by (intros E; subst k'; contradiction).
    apply Hfresh. right. exact Hk'.
Qed.

(* C20 for a whole batch (TIP-906 active): if the counts were right before and the coins the batch creates
   have fresh, distinct ids, the counts are right afterwards *)
Theorem accepted_batch_counts_ok lh txs s' relevant :
  apply_tx_batch SO s lh txs = Ok s' -> tip_906 s = true ->
  load_relevant_coins s txs = Ok relevant ->
  CountsOk (s_coins s, s_counts s) ->
  NoDup (map fst (flat_map (tx_inserts SO relevant) txs)) ->
  (forall k, In k (map fst (flat_map (tx_inserts SO relevant) txs)) -> s_coins s !! k = None) ->
  CountsOk (s_coins s', s_counts s').
Proof.
  intros H Htip Hrel Hok Hnd Hfresh.
  destruct (accepted_batch_pairs _ _ _ _ _ H) as (relevant' & Hrel' & Hrem).
  rewrite Hrel in Hrel'. injection Hrel' as <-. rewrite Htip in Hrem.
  apply (remove_coins_keeps_counts _ _ _ (ins_pairs_counts_ok _ _ Hok Hnd Hfresh) Hrem).
Qed.

Lemma insert_coin_false_counts k c cn : snd (insert_coin false k c cn) = snd cn.
Proof. destruct cn as [coins counts]. unfold insert_coin. destruct (coins !! k); reflexivity. Qed.

Lemma ins_pairs_false_counts : forall l cn, snd (ins_pairs false l cn) = snd cn.
Proof.
  induction l as [|[k c] l IH]; intros cn; cbn [ins_pairs fold_left fst snd]; [reflexivity|].
  fold (ins_pairs false l (insert_coin false k c cn)). rewrite IH. apply insert_coin_false_counts.
Qed.
End Batch.
