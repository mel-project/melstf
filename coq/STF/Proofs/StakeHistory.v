(* C13 over whole histories: while a stake registered under the transaction hash h stays in the stake set,
   every coin with that transaction hash stays in the coin tree, unchanged, through every batch and block
   boundary of every history (outside the legacy heights below 900000, finding F20).  The stake itself stays
   exactly as long as C13_lifetime says: through every boundary whose new epoch is <= its end field. *)
From MelVerif Require Import STF.Proofs.Tactics STF.Proofs.MapLemmas STF.Proofs.Frame STF.Proofs.Stakes
  STF.Proofs.Coins STF.Proofs.SealCoins STF.Proofs.HashFacts STF.Proofs.BatchSupply STF.Proofs.PermAccept
  STF.Proofs.History STF.Proofs.CoinHistory.
From Coq Require Import ZifyN ZifyNat ZifyBool.
Open Scope N_scope.

(* the lock: outside the legacy heights an accepted batch spends no coin whose transaction hash has a stake,
   registered before or by this batch.  Input indices are bytes (CoinID.index : u8). *)
Lemma staked_not_input SO s lh txs s' h i :
  apply_tx_batch SO s lh txs = Ok s' -> legacy900 s = false ->
  (forall t inp, In t txs -> In inp (t_inputs t) -> snd inp < 256) -> i < 256 ->
  is_Some (s_stakes s !! h) \/ is_Some (stake_fold s txs ∅ !! h) ->
  ~ In (coin_key h i) (all_inputs txs).
Proof.
  intros H Hleg Hidx Hi Hst Hin. unfold all_inputs in Hin. apply in_flat_map in Hin as (t & Ht & Hin).
  apply in_map_iff in Hin as (inp & E & Hinp). unfold input_key in E.
  apply coin_key_inj in E as [Eh _]; [|apply (Hidx t inp Ht Hinp)|exact Hi].
  destruct (accepted_batch_spends_no_locked_coin SO s lh txs s' H t inp Ht Hinp) as [Hl|[Hn1 Hn2]]; [congruence|].
  rewrite Eh in Hn1, Hn2. destruct Hst as [[d E]|[d E]]; congruence.
Qed.

Section StakeHistory.
Variable SO : stf_oracle.
Variable h : N.            (* hash of the staking transaction *)
Variable i : N.            (* an output index of it *)
Hypothesis Hi : i < 256.
Variable d : stakedoc.
Variable c : cdh.

Definition Locked (s : wstate) : Prop := s_stakes s !! h = Some d /\ s_coins s !! coin_key h i = Some c.

Lemma stake_fold_none s : forall txs acc, (forall t, In t txs -> t_hash t <> h) -> acc !! h = None ->
  stake_fold s txs acc !! h = None.
Proof.
  induction txs as [|t r IH]; intros acc Hne Ha; cbn [stake_fold fold_left]; [exact Ha|].
  apply IH; [intros t' Ht'; apply Hne; right; exact Ht'|].
  destruct (registers s t); [|exact Ha]. rewrite lookup_insert_ne; [exact Ha|]. apply Hne. left. reflexivity.
Qed.

(* a batch: the coin is not spent (lock), not overwritten (transaction hashes of the batch are new, markers are
   not coin ids of h), and the stake entry is not replaced *)
Lemma batch_keeps_locked s lh txs s' :
  apply_tx_batch SO s lh txs = Ok s' -> HashOK SO s txs -> legacy900 s = false ->
  (forall t, In t txs -> so_faucet_marker SO (t_hash t) <> h) ->
  (forall t inp, In t txs -> In inp (t_inputs t) -> snd inp < 256) ->
  Locked s -> Locked s'.
Proof.
  intros H HK Hleg Hm Hidx [Hs Hc]. split.
  - rewrite (accepted_batch_stakes SO s lh txs s' H). apply lookup_union_Some_raw. right.
    split; [apply stake_fold_none; [exact (fresh_hash_ne SO s txs HK h i c Hi Hc)|apply lookup_empty]|exact Hs].
  - apply (batch_keeps_coin SO h i Hi c s lh txs s' H HK); [|exact Hm|exact Hc].
    apply (staked_not_input SO s lh txs s' h i H Hleg Hidx Hi). left. eauto.
Qed.

(* a block boundary: sealing rewrites only outputs of pool requests and the reward coin; the stake survives the
   boundary exactly when the new epoch is <= its end field *)
Lemma block_keeps_locked s a hdr s' :
  seal SO s a = Ok s' ->
  (forall t, In t (sorted_txs s) -> is_pool_request t = true -> t_hash t <> h) ->
  so_reward_id SO (s_height s) <> h ->
  (s_height s + 1) / STAKE_EPOCH <= sd_postend d ->
  Locked s -> Locked (next_unsealed s' hdr).
Proof.
  intros H Hreq Hrw Hep [Hs Hc]. split; [|exact (block_keeps_coin SO h i Hi c s a hdr s' H Hreq Hrw Hc)].
  apply next_unsealed_stakes. rewrite (seal_stakes SO s a s' H).
  assert (Eh: s_height s' = s_height s) by (apply seal_frame in H; tauto). rewrite Eh. auto.
Qed.

Definition stake_step_ok (s : wstate) (o : hop) : Prop :=
  match o with
  | HBatch lh txs => HashOK SO s txs /\ legacy900 s = false /\
      (forall t, In t txs -> so_faucet_marker SO (t_hash t) <> h) /\
      (forall t inp, In t txs -> In inp (t_inputs t) -> snd inp < 256)
  | HBlock a hdr =>
      (forall t, In t (sorted_txs s) -> is_pool_request t = true -> t_hash t <> h) /\
      so_reward_id SO (s_height s) <> h /\
      (s_height s + 1) / STAKE_EPOCH <= sd_postend d
  end.

(* C13: the staked coin is there, unchanged, in every state of every history whose block boundaries stay within
   the life of the stake *)
Theorem staked_coin_locked_for_life : forall ops s,
  Locked s -> hist_all SO stake_step_ok s ops -> Locked (fold_left (hstep SO) ops s).
Proof.
  apply (history_invariant_cases SO Locked stake_step_ok).
  - intros s lh txs s' L (HK & Hleg & Hm & Hidx) E. exact (batch_keeps_locked s lh txs s' E HK Hleg Hm Hidx L).
  - intros s a hdr s' L (Hreq & Hrw & Hep) E. exact (block_keeps_locked s a hdr s' E Hreq Hrw Hep L).
Qed.

(* the definitions, spelled out for the property files *)
Lemma locked_def s : Locked s <-> s_stakes s !! h = Some d /\ s_coins s !! coin_key h i = Some c.
Proof. reflexivity. Qed.
Lemma stake_step_ok_def s o :
  stake_step_ok s o <->
  match o with
  | HBatch lh txs => HashOK SO s txs /\ legacy900 s = false /\
      (forall t, In t txs -> so_faucet_marker SO (t_hash t) <> h) /\
      (forall t inp, In t txs -> In inp (t_inputs t) -> snd inp < 256)
  | HBlock a hdr =>
      (forall t, In t (sorted_txs s) -> is_pool_request t = true -> t_hash t <> h) /\
      so_reward_id SO (s_height s) <> h /\
      (s_height s + 1) / STAKE_EPOCH <= sd_postend d
  end.
Proof. destruct o; reflexivity. Qed.
End StakeHistory.

(* how the lock starts: an accepted batch that registers a stake leaves the stake in the set and the staked
   output in the coin tree (it cannot be spent inside the same batch either) *)
Lemma registered_stake_locked SO s lh txs s' t d first rest :
  apply_tx_batch SO s lh txs = Ok s' -> HashOK SO s txs -> legacy900 s = false ->
  (forall t inp, In t txs -> In inp (t_inputs t) -> snd inp < 256) ->
  In t txs -> registers s t = Some d -> t_outputs t = first :: rest -> cd_covhash first <> 0 ->
  Locked (t_hash t) 0 d (coin_of s t first) s'.
Proof.
  intros H HK Hleg Hidx Ht Hreg Hout Hcov.
  assert (Hsf: stake_fold s txs ∅ !! t_hash t = Some d).
  { assert (Hin: In (t_hash t, d) (stake_bindings s txs)).
    { unfold stake_bindings. apply in_flat_map. exists t. split; [exact Ht|]. rewrite Hreg. left. reflexivity. }
    rewrite stake_fold_ins_all. apply ins_all_key; [|exact Hin].
    intros d' Hd'. exact (stake_bindings_consistent s txs (hk_nodup _ _ _ HK) _ _ _ Hd' Hin). }
  split.
  - rewrite (accepted_batch_stakes SO s lh txs s' H). apply lookup_union_Some_raw. left. exact Hsf.
  - destruct (accepted_batch_coins _ _ _ _ _ H) as (relevant & Hrel & Ec). rewrite Ec.
    rewrite del_all_notin by (apply (staked_not_input SO s lh txs s' _ 0 H Hleg Hidx); [lia|right; eauto]).
    assert (Hin: In (coin_key (t_hash t) 0, coin_of s t first) (flat_map (tx_inserts SO relevant) txs)).
    { apply in_flat_map. exists t. split; [exact Ht|]. apply in_tx_inserts. right. exists 0, first.
      split; [rewrite Hout; left; reflexivity|]. split; [reflexivity|].
      pose proof (relevant_at_hash SO s txs relevant t (0, first) HK Hrel Ht) as Er.
      rewrite Hout in Er. specialize (Er (or_introl eq_refl)). unfold key_of in Er. cbn [fst snd] in Er.
      destruct (N.eqb_spec (cd_covhash first) 0) as [E0|_]; [contradiction|]. exact Er. }
    apply ins_all_key; [|exact Hin].
    intros c' Hc'. exact (batch_inserts_consistent SO relevant txs (hk_marker_ne SO s txs HK) _ _ _ Hc' Hin).
Qed.
