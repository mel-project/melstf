(* C03, second half: a batch equals applying its transactions one at a time, in any order in which no
   transaction spends an output of itself or of a later one.  The proof peels off the head ([batch_cons]): each
   condition of [apply_tx_batch_char] for t :: r in s is the same condition for [t] in s and for r in the state
   s1 that [t] alone leads to, and so is the resulting state. *)
From MelVerif Require Import STF.Proofs.Tactics STF.Proofs.MapLemmas STF.Proofs.Stakes STF.Proofs.Faucet
  STF.Proofs.Coins STF.Proofs.Fees STF.Proofs.Counts STF.Proofs.Perm STF.Proofs.HashFacts STF.Proofs.BatchSupply
  STF.Proofs.PermAccept.
From Coq Require Import ZifyN ZifyNat ZifyBool.
Open Scope N_scope.

Section Seq.
Variable SO : stf_oracle.
Variable lh : header.

Lemma check_inputs_ext s1 s2 r1 r2 ns1 ns2 t : forall ins idx good inc,
  (forall i, In i ins -> r1 !! input_key i = r2 !! input_key i /\ coin_locked s1 ns1 (fst i) = coin_locked s2 ns2 (fst i)) ->
  check_inputs SO s1 lh r1 ns1 t idx ins good inc = check_inputs SO s2 lh r2 ns2 t idx ins good inc.
Proof.
  induction ins as [|i ins IH]; intros idx good inc H; cbn [check_inputs]; [reflexivity|].
  destruct (H i (or_introl eq_refl)) as [E1 E2].
  assert (Ec: check_input SO s1 lh r1 ns1 t idx i good inc = check_input SO s2 lh r2 ns2 t idx i good inc).
  { unfold check_input. rewrite E1, E2. reflexivity. }
  rewrite Ec. destruct (check_input SO s2 lh r2 ns2 t idx i good inc) as [gi| |]; cbn [obind]; try reflexivity.
  apply IH. intros i' Hi'. apply H. right. exact Hi'.
Qed.

Lemma check_tx_validity_ext s1 s2 r1 r2 ns1 ns2 t :
  (forall i, In i (t_inputs t) -> r1 !! input_key i = r2 !! input_key i /\ coin_locked s1 ns1 (fst i) = coin_locked s2 ns2 (fst i)) ->
  check_tx_validity SO s1 lh r1 ns1 t = check_tx_validity SO s2 lh r2 ns2 t.
Proof. intros H. unfold check_tx_validity. rewrite (check_inputs_ext s1 s2 r1 r2 ns1 ns2 t _ _ _ _ H). reflexivity. Qed.

Lemma validate_doscmint_ext s1 s2 r1 r2 t :
  s_height s1 = s_height s2 -> s_network s1 = s_network s2 -> s_history s1 = s_history s2 ->
  (forall i, In i (t_inputs t) -> r1 !! input_key i = r2 !! input_key i) ->
  validate_doscmint SO s1 r1 t = validate_doscmint SO s2 r2 t.
Proof.
  intros Eh En Ehi Hr. unfold validate_doscmint. destruct (t_inputs t) as [|i0 rest]; [reflexivity|].
  rewrite (Hr i0 (or_introl eq_refl)), Eh, En, Ehi. reflexivity.
Qed.

Lemma stake_fold_lookup s txs h : is_Some (stake_fold s txs ∅ !! h) -> exists t, In t txs /\ t_hash t = h.
Proof.
  rewrite stake_fold_ins_all. intros [d Hd].
  apply ins_all_Some in Hd as [Hi|[He _]]; [|rewrite lookup_empty in He; discriminate].
  unfold stake_bindings in Hi. apply in_flat_map in Hi as (t & Ht & Hi).
  destruct (registers s t); [|contradiction]. destruct Hi as [E|[]]. injection E as E _. eauto.
Qed.

Lemma stake_fold_cons s t r st :
  stake_fold s (t :: r) ∅ ∪ st = stake_fold s r ∅ ∪ (stake_fold s [t] ∅ ∪ st).
Proof.
  rewrite !stake_fold_ins_all.
  assert (E: stake_bindings s (t :: r) = stake_bindings s [t] ++ stake_bindings s r).
  { unfold stake_bindings. cbn [flat_map]. rewrite app_nil_r. reflexivity. }
  rewrite E, ins_all_app, (ins_all_union (stake_bindings s r) (ins_all (stake_bindings s [t]) ∅)).
  rewrite (assoc_L (∪)). reflexivity.
Qed.

Lemma created_cons s t r : created s (t :: r) = created s [t] ++ created s r.
Proof. unfold created. cbn [flat_map]. rewrite app_nil_r. reflexivity. Qed.

(* what load_relevant_coins binds an input [k] of the batch to *)
Definition rel_of (s : wstate) (txs : list tx) (k : N) : option cdh :=
  match outputs_map s txs !! k with Some c => Some c | None => s_coins s !! k end.

Lemma rel_of_some s txs k : is_Some (rel_of s txs k) <-> is_Some (outputs_map s txs !! k) \/ is_Some (s_coins s !! k).
Proof.
  unfold rel_of. destruct (outputs_map s txs !! k); [split; eauto|].
  split; [auto|]. intros [[? H]|H]; [discriminate|exact H].
Qed.

Lemma out_keys_cons t r : out_keys (t :: r) = out_keys [t] ++ out_keys r.
Proof. unfold out_keys. cbn [flat_map]. rewrite app_nil_r. reflexivity. Qed.
Lemma all_inputs_cons t r : all_inputs (t :: r) = all_inputs [t] ++ all_inputs r.
Proof. unfold all_inputs. cbn [flat_map]. rewrite app_nil_r. reflexivity. Qed.
Lemma all_inputs_single t : all_inputs [t] = map input_key (t_inputs t).
Proof. unfold all_inputs. cbn [flat_map]. apply app_nil_r. Qed.

Lemma rel_of_cons s t r k :
  rel_of s (t :: r) k = match outputs_map s r !! k with Some c => Some c | None => rel_of s [t] k end.
Proof.
  unfold rel_of. rewrite !outputs_map_ins_all, created_cons, ins_all_app, (ins_all_union (created s r)), lookup_union.
  destruct (ins_all (created s r) ∅ !! k), (ins_all (created s [t]) ∅ !! k); reflexivity.
Qed.

Lemma batch_coins_rel s txs s' k :
  apply_tx_batch SO s lh txs = Ok s' -> ~ In k (all_inputs txs) -> (forall t, In t txs -> k <> marker_key SO t) ->
  s_coins s' !! k = rel_of s txs k.
Proof.
  intros H Hk Hm. destruct (accepted_batch_coins _ _ _ _ _ H) as (rel & Hrel & ->).
  rewrite del_all_notin by exact Hk. rewrite (inserted_at SO s txs rel Hrel k Hm), (relevant_other s _ _ k Hrel Hk). reflexivity.
Qed.

Lemma rel_after_head s t r s1 k :
  HashOK SO s (t :: r) -> apply_tx_batch SO s lh [t] = Ok s1 ->
  In k (all_inputs r) -> ~ In k (all_inputs [t]) ->
  rel_of s1 r k = rel_of s (t :: r) k.
Proof.
  intros HK H1 Hk Hnk. rewrite rel_of_cons, <- (batch_coins_rel s [t] s1 k H1 Hnk).
  - unfold rel_of, outputs_map. rewrite (proj1 (apply_tx_batch_frame _ _ _ _ _ H1)). reflexivity.
  - (* spent by the tail, [k] is no marker of the batch *)
    intros t0 [<-|[]] ->. apply (hk_marker_not_input SO s _ HK t (or_introl eq_refl)).
    rewrite all_inputs_cons. apply in_or_app. right. exact Hk.
Qed.

(* is_Some as a boolean, the way coin_locked spells it *)
Definition bsome {A} (m : gmap N A) (h : N) : bool := match m !! h with Some _ => true | None => false end.
Lemma bsome_union {A} (a b : gmap N A) h : bsome (a ∪ b) h = bsome a h || bsome b h.
Proof. unfold bsome. rewrite lookup_union. destruct (a !! h), (b !! h); reflexivity. Qed.

Lemma coin_locked_after_head s s1 t r h :
  s_stakes s1 = stake_fold s [t] ∅ ∪ s_stakes s -> s_network s1 = s_network s -> s_height s1 = s_height s ->
  coin_locked s1 (stake_fold s r ∅) h = coin_locked s (stake_fold s (t :: r) ∅) h.
Proof.
  intros Es En Eh. unfold coin_locked, legacy_net. rewrite En, Eh. f_equal.
  change ((bsome (stake_fold s r ∅) h || bsome (s_stakes s1) h) = (bsome (stake_fold s (t :: r) ∅) h || bsome (s_stakes s) h)).
  rewrite Es, <- !bsome_union, <- stake_fold_cons. reflexivity.
Qed.

Record SplitOK (s : wstate) (t : tx) (r : list tx) : Prop := {
  sp_hash : HashOK SO s (t :: r);
  sp_counts : tip_906 s = true -> CountsOk (s_coins s, s_counts s);
  (* the head spends no output of the batch: it comes first in dependency order *)
  sp_dep : forall i, In i (t_inputs t) -> ~ In (input_key i) (out_keys (t :: r));
  (* input indices are bytes *)
  sp_idx : forall t' i, In t' (t :: r) -> In i (t_inputs t') -> snd i < 256
}.

Lemma inputs_from_state s l rel t :
  load_relevant_coins s l = Ok rel -> In t l -> (forall i, In i (t_inputs t) -> ~ In (input_key i) (out_keys l)) ->
  forall i, In i (t_inputs t) -> rel !! input_key i = s_coins s !! input_key i /\ is_Some (s_coins s !! input_key i).
Proof.
  intros Hrel Ht Hd i Hi. destruct (load_relevant_coins_spec _ _ _ Hrel) as (_ & _ & Hex & _).
  assert (I: In (input_key i) (all_inputs l)) by (apply in_flat_map; exists t; split; [exact Ht|apply in_map; exact Hi]).
  pose proof (relevant_input s _ _ _ Hrel I) as E. pose proof (Hex _ I) as Hs. rewrite (outputs_map_none s l _ (Hd i Hi)) in E, Hs.
  split; [exact E|]. destruct Hs as [[c Ho]|Hc]; [discriminate|exact Hc].
Qed.

Lemma sp_dep_head s t r : SplitOK s t r -> forall i, In i (t_inputs t) -> ~ In (input_key i) (out_keys [t]).
Proof. intros SP i Hi Hk. apply (sp_dep _ _ _ SP i Hi). rewrite out_keys_cons. apply in_or_app. left. exact Hk. Qed.

(* a coin of the state is not an output of a member of the batch, whose hash is new: no stake registered by the
   batch locks it *)
Lemma head_not_locked s t r l i :
  SplitOK s t r -> (forall t', In t' l -> In t' (t :: r)) -> In i (t_inputs t) -> is_Some (s_coins s !! input_key i) ->
  stake_fold s l ∅ !! fst i = None.
Proof.
  intros SP Hsub Hi [c Hc]. apply eq_None_not_Some. intros Hst.
  destruct (stake_fold_lookup s l (fst i) Hst) as (t' & Ht' & Eh).
  unfold input_key in Hc. rewrite <- Eh in Hc.
  rewrite (hk_fresh _ _ _ (sp_hash _ _ _ SP) t' (snd i) (Hsub t' Ht') (sp_idx _ _ _ SP t i (or_introl eq_refl) Hi)) in Hc.
  discriminate.
Qed.

Lemma head_judged_alike s t r rel rt :
  SplitOK s t r -> load_relevant_coins s (t :: r) = Ok rel -> load_relevant_coins s [t] = Ok rt ->
  check_tx_validity SO s lh rt (stake_fold s [t] ∅) t = check_tx_validity SO s lh rel (stake_fold s (t :: r) ∅) t /\
  validate_doscmint SO s rt t = validate_doscmint SO s rel t.
Proof.
  intros SP Hrel Hrt.
  (* both maps read the head's inputs from the state, where they exist *)
  pose proof (inputs_from_state s (t :: r) rel t Hrel (or_introl eq_refl) (sp_dep _ _ _ SP)) as HR.
  pose proof (inputs_from_state s [t] rt t Hrt (or_introl eq_refl) (sp_dep_head s t r SP)) as HRt.
  assert (E: forall i, In i (t_inputs t) -> rt !! input_key i = rel !! input_key i).
  { intros i Hi. rewrite (proj1 (HR i Hi)). apply HRt, Hi. }
  split.
  - apply check_tx_validity_ext. intros i Hi. split; [exact (E i Hi)|].
    pose proof (proj2 (HRt i Hi)) as Hex. unfold coin_locked. f_equal. f_equal.
    rewrite (head_not_locked s t r [t] i SP) by (auto; intros t' [<-|[]]; left; reflexivity).
    rewrite (head_not_locked s t r (t :: r) i SP) by auto. reflexivity.
  - apply validate_doscmint_ext; try reflexivity. exact E.
Qed.

Lemma head_relevant_ex s t r rel :
  SplitOK s t r -> load_relevant_coins s (t :: r) = Ok rel -> exists rt, load_relevant_coins s [t] = Ok rt.
Proof.
  intros SP Hrel. destruct (load_relevant_coins_spec _ _ _ Hrel) as (Hwf & Hnd & _).
  apply load_relevant_ok_iff. split; [|split].
  - intros t0 [<-|[]]. apply Hwf. left. reflexivity.
  - rewrite all_inputs_cons in Hnd. apply nodup_app in Hnd. apply Hnd.
  - intros k Hk. right. rewrite all_inputs_single in Hk. apply in_map_iff in Hk as (i & <- & Hi).
    apply (inputs_from_state s (t :: r) rel t Hrel (or_introl eq_refl) (sp_dep _ _ _ SP) i Hi).
Qed.

Lemma tx_accepts_ext s1 s2 r1 r2 ns1 ns2 t :
  stake_tx_ok s1 t = stake_tx_ok s2 t ->
  check_tx_validity SO s1 lh r1 ns1 t = check_tx_validity SO s2 lh r2 ns2 t /\
  validate_doscmint SO s1 r1 t = validate_doscmint SO s2 r2 t ->
  (tx_accepts SO s1 lh r1 ns1 t <-> tx_accepts SO s2 lh r2 ns2 t).
Proof. unfold tx_accepts. intros -> [-> ->]. reflexivity. Qed.

Lemma Accepts_head s t r rel rt :
  SplitOK s t r -> Accepts SO s lh (t :: r) rel -> load_relevant_coins s [t] = Ok rt -> Accepts SO s lh [t] rt.
Proof.
  intros SP [Hrel Hall] Hrt. constructor; [exact Hrt|]. intros t0 [<-|[]].
  apply (tx_accepts_ext _ _ _ _ _ _ _ eq_refl (head_judged_alike s t r rel rt SP Hrel Hrt)), Hall. left. reflexivity.
Qed.

Lemma registers_ext s1 s2 t : s_network s1 = s_network s2 -> s_height s1 = s_height s2 -> registers s1 t = registers s2 t.
Proof. intros En Eh. unfold registers, legacy500, legacy_net. rewrite En, Eh. reflexivity. Qed.
Lemma stake_tx_ok_ext s1 s2 t : s_network s1 = s_network s2 -> s_height s1 = s_height s2 -> stake_tx_ok s1 t = stake_tx_ok s2 t.
Proof. intros En Eh. unfold stake_tx_ok, legacy500, legacy_net. rewrite En, Eh. reflexivity. Qed.
Lemma stake_fold_ext s1 s2 : s_network s1 = s_network s2 -> s_height s1 = s_height s2 ->
  forall txs acc, stake_fold s1 txs acc = stake_fold s2 txs acc.
Proof.
  intros En Eh txs acc. rewrite !stake_fold_ins_all. f_equal. apply flat_map_ext. intros t.
  rewrite (registers_ext s1 s2 t En Eh). reflexivity.
Qed.

Lemma tail_assumptions s t r s1 :
  SplitOK s t r -> apply_tx_batch SO s lh [t] = Ok s1 ->
  HashOK SO s1 r /\ (tip_906 s1 = true -> CountsOk (s_coins s1, s_counts s1)).
Proof.
  intros SP H1. pose proof (sp_hash _ _ _ SP) as HK.
  destruct (HashOK_cons _ _ _ _ HK) as [HKt HKr].
  pose proof (hk_nodup _ _ _ HK) as Hnd. cbn [map] in Hnd. inversion Hnd as [|? ? Hni _]; subst.
  split.
  - (* the head writes at no id of a later member's hash, and what was not there before is not there after *)
    apply (HashOK_state SO s s1 r HKr). intros t' i Ht' Hi.
    rewrite (batch_coin_at SO s lh [t] s1 H1 (t_hash t') i Hi).
    + apply eq_None_not_Some. intros [c Hc]. apply del_all_Some in Hc.
      rewrite (hk_fresh _ _ _ HKr t' i Ht' Hi) in Hc. discriminate.
    + intros t0 [<-|[]] E. apply Hni. rewrite E. apply in_map. exact Ht'.
    + intros t0 [<-|[]] _. apply (hk_marker_tx _ _ _ HK t t'); [left; reflexivity|right; exact Ht'].
  - intros Htip. rewrite (apply_tx_batch_tip906 _ _ _ _ _ H1) in Htip.
    eapply accepted_batch_counts_hash; [exact H1|exact Htip|apply (sp_counts _ _ _ SP); exact Htip|exact HKt].
Qed.

Lemma tail_marker_kept s t r s1 t' :
  SplitOK s t r -> apply_tx_batch SO s lh [t] = Ok s1 -> In t' r ->
  s_coins s1 !! marker_key SO t' = s_coins s !! marker_key SO t'.
Proof.
  intros SP H1 Ht'. pose proof (sp_hash _ _ _ SP) as HK. rewrite (batch_coins_unwritten SO s lh [t] s1 _ H1).
  - apply del_all_notin. intros Hi. apply (hk_marker_not_input SO s _ HK t' (or_intror Ht')). rewrite all_inputs_cons. apply in_or_app. left. exact Hi.
  - intros Ho. apply (hk_marker_not_out SO s _ HK t' (or_intror Ht')). rewrite out_keys_cons. apply in_or_app. left. exact Ho.
  - intros t0 [<-|[]] _. exact (hk_marker_head_ne SO s t r t' HK Ht').
Qed.

Lemma tail_faucet_alike s t r s1 t' :
  SplitOK s t r -> apply_tx_batch SO s lh [t] = Ok s1 -> In t' r -> (faucet_ok SO s1 t' <-> faucet_ok SO s t').
Proof.
  intros SP H1 Ht'. unfold faucet_ok, faucet_ok_at. rewrite (tail_marker_kept s t r s1 t' SP H1 Ht').
  destruct (apply_tx_batch_frame _ _ _ _ _ H1) as (_ & -> & _). reflexivity.
Qed.

Lemma split_relevant s t r s1 :
  SplitOK s t r -> apply_tx_batch SO s lh [t] = Ok s1 ->
  (exists rel, load_relevant_coins s (t :: r) = Ok rel) <-> (exists rr, load_relevant_coins s1 r = Ok rr).
Proof.
  intros SP H1. pose proof (sp_hash _ _ _ SP) as HK.
  pose proof H1 as A. apply apply_tx_batch_ok in A as (rt & n & [Hrt _] & _).
  destruct (load_relevant_coins_spec _ _ _ Hrt) as (Hwf_t & Hnd_t & _).
  rewrite !load_relevant_ok_iff, all_inputs_cons. split.
  - intros (Hwf & Hnd & Hex).
    apply nodup_app in Hnd as (_ & Hdisj & Hnd_r). split; [|split].
    + intros t' Ht'. apply Hwf. right. exact Ht'.
    + exact Hnd_r.
    + intros k Hk. apply rel_of_some. rewrite (rel_after_head s t r s1 k HK H1 Hk).
      * apply rel_of_some, Hex, in_or_app. right. exact Hk.
      * intros Hk'. exact (Hdisj k Hk' Hk).
  - intros (Hwf_r & Hnd_r & Hex_r).
    assert (Hwf: forall t0, In t0 (t :: r) -> well_formed t0 = true /\ totals_fit t0 = true).
    { intros t0 [<-|Ht0]; [apply Hwf_t; left; reflexivity|apply Hwf_r; exact Ht0]. }
    (* an input of the head is gone after the head, and an output of the tail is not an input of the head *)
    assert (Hdisj: forall k, In k (all_inputs [t]) -> ~ In k (all_inputs r)).
    { intros k Hk Hk'. destruct (accepted_batch_coins _ _ _ _ _ H1) as (rt' & _ & Ec).
      destruct (Hex_r _ Hk') as [Ho|Hc]; [|rewrite Ec, del_all_in in Hc by exact Hk; destruct Hc as [? Hc]; discriminate].
      rewrite all_inputs_single in Hk. apply in_map_iff in Hk as (i & <- & Hi).
      apply (sp_dep _ _ _ SP i Hi). rewrite out_keys_cons. apply in_or_app. right.
      destruct (in_dec N.eq_dec (input_key i) (out_keys r)) as [Hin|Hin]; [exact Hin|].
      rewrite (outputs_map_none s1 r _ Hin) in Ho. destruct Ho as [? Ho]. discriminate. }
    split; [exact Hwf|]. split.
    + apply nodup_app. split; [exact Hnd_t|split; [exact Hdisj|exact Hnd_r]].
    + intros k Hk. apply in_app_or in Hk as [Hk|Hk].
      * right. rewrite all_inputs_single in Hk. apply in_map_iff in Hk as (i & <- & Hi).
        exact (proj2 (inputs_from_state s [t] rt t Hrt (or_introl eq_refl) (sp_dep_head s t r SP) i Hi)).
      * apply rel_of_some. rewrite <- (rel_after_head s t r s1 k HK H1 Hk (fun Hk' => Hdisj k Hk' Hk)).
        apply rel_of_some, Hex_r, Hk.
Qed.

Lemma tail_agree s t r s1 rel rr :
  SplitOK s t r -> apply_tx_batch SO s lh [t] = Ok s1 ->
  load_relevant_coins s (t :: r) = Ok rel -> load_relevant_coins s1 r = Ok rr ->
  forall k, In k (all_inputs r) -> rr !! k = rel !! k.
Proof.
  intros SP H1 Hrel Hrr k Hk.
  destruct (load_relevant_coins_spec _ _ _ Hrel) as (_ & Hnd & _).
  rewrite all_inputs_cons in Hnd. apply nodup_app in Hnd as (_ & Hdisj & _).
  rewrite (relevant_input s1 _ _ k Hrr Hk). change (rel_of s1 r k = rel !! k).
  rewrite (rel_after_head s t r s1 k (sp_hash _ _ _ SP) H1 Hk).
  - symmetry. apply (relevant_input s _ _ _ Hrel). rewrite all_inputs_cons. apply in_or_app. right. exact Hk.
  - intros Hk'. exact (Hdisj k Hk' Hk).
Qed.

Lemma tail_judged_alike s t r s1 rel rr t' :
  SplitOK s t r -> apply_tx_batch SO s lh [t] = Ok s1 ->
  load_relevant_coins s (t :: r) = Ok rel -> load_relevant_coins s1 r = Ok rr -> In t' r ->
  check_tx_validity SO s1 lh rr (stake_fold s1 r ∅) t' = check_tx_validity SO s lh rel (stake_fold s (t :: r) ∅) t' /\
  validate_doscmint SO s1 rr t' = validate_doscmint SO s rel t'.
Proof.
  intros SP H1 Hrel Hrr Ht'. pose proof (tail_agree s t r s1 rel rr SP H1 Hrel Hrr) as HRin.
  destruct (apply_tx_batch_frame _ _ _ _ _ H1) as (Eh & En & Ehi & _).
  assert (Hi: forall i, In i (t_inputs t') -> rr !! input_key i = rel !! input_key i).
  { intros i Hi. apply HRin. unfold all_inputs. apply in_flat_map. exists t'. split; [exact Ht'|apply in_map; exact Hi]. }
  split.
  - apply check_tx_validity_ext. intros i Hi'. split; [exact (Hi i Hi')|].
    rewrite (stake_fold_ext s1 s En Eh). apply coin_locked_after_head; [exact (accepted_batch_stakes _ _ _ _ _ H1)|exact En|exact Eh].
  - apply validate_doscmint_ext; assumption.
Qed.

Lemma tail_accepted_alike s t r s1 rel rr :
  SplitOK s t r -> apply_tx_batch SO s lh [t] = Ok s1 -> load_relevant_coins s (t :: r) = Ok rel ->
  load_relevant_coins s1 r = Ok rr -> forall t', In t' r ->
  tx_accepts SO s1 lh rr (stake_fold s1 r ∅) t' <-> tx_accepts SO s lh rel (stake_fold s (t :: r) ∅) t'.
Proof.
  intros SP H1 Hrel Hrr t' Ht'. destruct (apply_tx_batch_frame _ _ _ _ _ H1) as (Eh & En & _).
  exact (tx_accepts_ext _ _ _ _ _ _ _ (stake_tx_ok_ext s1 s t' En Eh) (tail_judged_alike s t r s1 rel rr t' SP H1 Hrel Hrr Ht')).
Qed.

Lemma speed_after_cons s rel t r :
  speed_after SO s rel (t :: r) =
  fold_left (fun a r => match r with Ok v => N.max a v | _ => a end)
            (map (validate_doscmint SO s rel) (List.filter is_mint r)) (speed_after SO s rel [t]).
Proof.
  unfold speed_after. cbn [List.filter]. destruct (is_mint t); cbn [map fold_left app]; reflexivity.
Qed.

Lemma fee_fold_cons mult t r fp tips :
  fee_fold mult (t :: r) fp tips =
  match fee_fold mult [t] fp tips with Some (fp1, tips1) => fee_fold mult r fp1 tips1 | None => None end.
Proof.
  cbn [fee_fold]. destruct (min_fee mult t) as [mf| |]; try reflexivity. destruct (t_fee t <? mf); reflexivity.
Qed.

Lemma batch_post_cons s t r rel rt rr fp1 tp1 fp tp (s1 := batch_post SO s rt [t] fp1 tp1) :
  SplitOK s t r -> apply_tx_batch SO s lh [t] = Ok s1 ->
  load_relevant_coins s (t :: r) = Ok rel -> load_relevant_coins s [t] = Ok rt -> load_relevant_coins s1 r = Ok rr ->
  batch_post SO s1 rr r fp tp = batch_post SO s rel (t :: r) fp tp.
Proof.
  intros SP H1 Hrel Hrt Hrr. pose proof (sp_hash _ _ _ SP) as HK. destruct (HashOK_cons _ _ _ _ HK) as [HKt _].
  destruct (tail_assumptions s t r s1 SP H1) as [HK1 _].
  (* the bindings inserted are the same *)
  assert (ELt: tx_inserts SO rt t = tx_inserts SO rel t).
  { rewrite (tx_inserts_hash SO s [t] rt t HKt Hrt (or_introl eq_refl)).
    rewrite (tx_inserts_hash SO s (t :: r) rel t HK Hrel (or_introl eq_refl)). reflexivity. }
  assert (ELr: flat_map (tx_inserts SO rr) r = flat_map (tx_inserts SO rel) r).
  { apply flat_map_ext_In. intros t' Ht'. rewrite (tx_inserts_hash SO s1 r rr t' HK1 Hrr Ht').
    rewrite (tx_inserts_hash SO s (t :: r) rel t' HK Hrel (or_intror Ht')). reflexivity. }
  assert (Ecoins: batch_coins SO s1 rr r = batch_coins SO s rel (t :: r)).
  { unfold batch_coins. change (s_coins s1) with (batch_coins SO s rt [t]). unfold batch_coins.
    rewrite ELr. cbn [flat_map]. rewrite app_nil_r, ELt, (all_inputs_cons t r), del_all_app, ins_all_app. f_equal.
    apply ins_del_commute.
    (* the head's inputs are not ids inserted by the tail *)
    intros k Hk Hin2. rewrite all_inputs_single in Hk. apply in_map_iff in Hk as (i & <- & Hi).
    rewrite map_flat_map in Hin2. apply in_flat_map in Hin2 as (t' & Ht' & Hin2).
    apply insert_key_cases in Hin2 as [(_ & E)|(io & Hio & E)].
    - apply (hk_marker_not_input SO s _ HK t' (or_intror Ht')). rewrite <- E, all_inputs_cons, all_inputs_single.
      apply in_or_app. left. apply in_map. exact Hi.
    - apply (sp_dep _ _ _ SP i Hi). rewrite E. apply in_out_keys; [right; exact Ht'|exact Hio]. }
  unfold batch_post. rewrite Ecoins. f_equal.
  - change (counts_after (tip_906 s) (batch_coins SO s rel (t :: r)) (counts_after (tip_906 s) (batch_coins SO s rt [t]) (s_counts s))
            = counts_after (tip_906 s) (batch_coins SO s rel (t :: r)) (s_counts s)).
    destruct (tip_906 s); reflexivity.
  - rewrite speed_after_cons. unfold speed_after at 1. change (s_dosc_speed s1) with (speed_after SO s rt [t]). f_equal.
    + apply map_ext_in. intros t' Ht'. apply filter_In in Ht' as [Ht' _].
      apply (tail_judged_alike s t r s1 rel rr t' SP H1 Hrel Hrr Ht').
    + unfold speed_after. cbn [List.filter]. destruct (is_mint t); cbn [map]; [|reflexivity].
      destruct (head_judged_alike s t r rel rt SP Hrel Hrt) as [_ ->]. reflexivity.
  - change (s_stakes s1) with (stake_fold s [t] ∅ ∪ s_stakes s).
    rewrite (stake_fold_ext s1 s eq_refl eq_refl). symmetry. apply stake_fold_cons.
Qed.

Theorem batch_cons s t r s' :
  SplitOK s t r ->
  (apply_tx_batch SO s lh (t :: r) = Ok s' <->
   exists s1, apply_tx_batch SO s lh [t] = Ok s1 /\ apply_tx_batch SO s1 lh r = Ok s').
Proof.
  intros SP. pose proof (sp_hash _ _ _ SP) as HK. pose proof (sp_counts _ _ _ SP) as Hc.
  destruct (HashOK_cons _ _ _ _ HK) as [HKt _]. split.
  - intros H. apply (apply_tx_batch_char SO s lh _ _ HK Hc) in H as (rel & fp & tp & A & Hfa & Hf & ->).
    pose proof (acc_rel A) as Hrel.
    destruct (head_relevant_ex s t r rel SP Hrel) as [rt Hrt].
    rewrite fee_fold_cons in Hf.
    destruct (fee_fold (s_fee_mult s) [t] (s_fee_pool s) (s_tips s)) as [[fp1 tp1]|] eqn:Hf1; [|discriminate].
    (* the head alone is accepted *)
    assert (H1: apply_tx_batch SO s lh [t] = Ok (batch_post SO s rt [t] fp1 tp1)).
    { apply (apply_tx_batch_char SO s lh _ _ HKt Hc). exists rt, fp1, tp1.
      split; [exact (Accepts_head s t r rel rt SP A Hrt)|]. split; [|auto].
      intros t0 [<-|[]]. apply Hfa. left. reflexivity. }
    eexists. split; [exact H1|].
    (* then the tail *)
    destruct (tail_assumptions s t r _ SP H1) as [HK1 Hc1].
    destruct (proj1 (split_relevant s t r _ SP H1) (ex_intro _ rel Hrel)) as [rr Hrr].
    apply (apply_tx_batch_char SO _ lh _ _ HK1 Hc1). exists rr, fp, tp.
    split; [|split; [|split]].
    + constructor; [exact Hrr|]. intros t' Ht'.
      apply (tail_accepted_alike s t r _ rel rr SP H1 Hrel Hrr t' Ht'), (acc_each A). right. exact Ht'.
    + intros t' Ht'. apply (tail_faucet_alike s t r _ t' SP H1 Ht'), Hfa. right. exact Ht'.
    + exact Hf.
    + symmetry. apply batch_post_cons; assumption.
  - intros (s1 & H1 & H2). destruct (tail_assumptions s t r s1 SP H1) as [HK1 Hc1].
    pose proof H1 as H1'. apply (apply_tx_batch_char SO s lh _ _ HKt Hc) in H1' as (rt & fp1 & tp1 & At & Hfat & Hf1 & E1).
    apply (apply_tx_batch_char SO s1 lh _ _ HK1 Hc1) in H2 as (rr & fp & tp & Ar & Hfar & Hf & ->).
    destruct (proj2 (split_relevant s t r s1 SP H1) (ex_intro _ rr (acc_rel Ar))) as [rel Hrel].
    apply (apply_tx_batch_char SO s lh _ _ HK Hc). exists rel, fp, tp.
    split; [|split; [|split]].
    + constructor; [exact Hrel|]. intros t0 [<-|Ht0].
      * apply (tx_accepts_ext _ _ _ _ _ _ _ eq_refl (head_judged_alike s t r rel rt SP Hrel (acc_rel At))).
        apply (acc_each At). left. reflexivity.
      * apply (tail_accepted_alike s t r s1 rel rr SP H1 Hrel (acc_rel Ar) t0 Ht0), (acc_each Ar), Ht0.
    + intros t0 [<-|Ht0]; [apply Hfat; left; reflexivity|].
      apply (tail_faucet_alike s t r s1 t0 SP H1 Ht0), Hfar, Ht0.
    + rewrite fee_fold_cons, Hf1. subst s1. exact Hf.
    + subst s1. apply batch_post_cons; [exact SP|exact H1|exact Hrel|exact (acc_rel At)|exact (acc_rel Ar)].
Qed.

Theorem batch_cons_fwd s t r s' :
  SplitOK s t r -> apply_tx_batch SO s lh (t :: r) = Ok s' ->
  exists s1, apply_tx_batch SO s lh [t] = Ok s1 /\ apply_tx_batch SO s1 lh r = Ok s'.
Proof. intros SP. exact (proj1 (batch_cons s t r s' SP)). Qed.

Fixpoint seq_apply (s : wstate) (txs : list tx) : res wstate :=
  match txs with
  | [] => Ok s
  | t :: r => s1 <- apply_tx_batch SO s lh [t] ;; seq_apply s1 r
  end.

Fixpoint dep_ordered (txs : list tx) : Prop :=
  match txs with
  | [] => True
  | t :: r => (forall i, In i (t_inputs t) -> ~ In (input_key i) (out_keys (t :: r))) /\ dep_ordered r
  end.

Lemma apply_empty_batch s : apply_tx_batch SO s lh [] = Ok s.
Proof.
  unfold apply_tx_batch, load_relevant_coins. cbn. destruct s. cbn.
  unfold set_speed_stakes, set_coins. cbn. rewrite (left_id_L ∅ (∪)). reflexivity.
Qed.

(* C03: a batch equals the one-at-a-time application in dependency order *)
Theorem batch_is_sequential : forall txs s s',
  HashOK SO s txs ->
  (tip_906 s = true -> CountsOk (s_coins s, s_counts s)) ->
  (forall t i, In t txs -> In i (t_inputs t) -> snd i < 256) ->
  dep_ordered txs ->
  (apply_tx_batch SO s lh txs = Ok s' <-> seq_apply s txs = Ok s').
Proof.
  induction txs as [|t r IH]; intros s s' HK Hc Hidx Hdep.
  - cbn [seq_apply]. rewrite apply_empty_batch. reflexivity.
  - destruct Hdep as [Hd Hdr].
    assert (SP: SplitOK s t r) by (constructor; [exact HK|exact Hc|exact Hd|intros t' i Ht' Hi; eapply Hidx; eauto]).
    assert (IH1: forall s1, apply_tx_batch SO s lh [t] = Ok s1 -> apply_tx_batch SO s1 lh r = Ok s' <-> seq_apply s1 r = Ok s').
    { intros s1 H1. destruct (tail_assumptions s t r s1 SP H1) as [HK1 Hc1].
      apply (IH s1 s' HK1 Hc1); [|exact Hdr]. intros t' i Ht' Hi. apply (Hidx t' i); [right; exact Ht'|exact Hi]. }
    rewrite (batch_cons s t r s' SP). cbn [seq_apply]. split.
    + intros (s1 & H1 & H2). rewrite H1. cbn [obind]. apply (IH1 s1 H1). exact H2.
    + intros H. inv_bind H as s1 H1. exists s1. split; [exact H1|]. apply (IH1 s1 H1). exact H.
Qed.

(* every presentation of the set gives what the one-at-a-time application of any dependency-ordered
   presentation gives *)
Corollary batch_equals_any_sequential_order txs txs' s s' :
  Permutation txs txs' -> dep_ordered txs' ->
  HashOK SO s txs ->
  (tip_906 s = true -> CountsOk (s_coins s, s_counts s)) ->
  s_fee_pool s <= MAX128 -> s_tips s <= MAX128 ->
  (forall t i, In t txs -> In i (t_inputs t) -> snd i < 256) ->
  (apply_tx_batch SO s lh txs = Ok s' <-> seq_apply s txs' = Ok s').
Proof.
  intros P Hdep HK Hc Hfp Htp Hidx.
  pose proof (HashOK_perm SO s _ _ P HK) as HK'.
  assert (Hidx': forall t i, In t txs' -> In i (t_inputs t) -> snd i < 256).
  { intros t i Ht Hi. apply (Hidx t i); [|exact Hi]. eapply Permutation_in; [apply Permutation_sym; exact P|exact Ht]. }
  rewrite <- (batch_is_sequential txs' s s' HK' Hc Hidx' Hdep). split; intros H.
  - apply (batch_order_independent SO s lh txs txs' s' P HK Hc Hfp Htp H).
  - apply (batch_order_independent SO s lh txs' txs s' (Permutation_sym P) HK' Hc Hfp Htp H).
Qed.
End Seq.
