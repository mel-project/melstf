(* Non-vacuity of the history theorems of STF/Proofs/BoundsHistory.v: the concrete history of Witness5.v (a batch
   of two faucets and a transfer, then a block boundary with a proposer action, which bootstraps the built-in
   pools) starts in a state of the invariant and meets [bounds_step_ok] at every step. *)
From MelVerif Require Import STF.Proofs.Tactics STF.Proofs.Frame STF.Proofs.SealLift STF.Proofs.History
  STF.Proofs.Declared STF.Proofs.SealPegged STF.Proofs.SupplyHistory STF.Proofs.BoundsHistory STF.Proofs.Born
  STF.Proofs.SealTotal STF.Proofs.Witness STF.Proofs.Witness4 STF.Proofs.Witness5 STF.Proofs.Witness6.
Open Scope N_scope.

Lemma w_state_good2 : Good2 w_state.
Proof.
  split; [exact w_state_good|]. intros t Ht. apply in_sorted_txs in Ht as (h & Hh). cbn in Hh.
  rewrite lookup_empty in Hh. discriminate.
Qed.

Lemma w_s1_bounds : seal_bounds w_K3 w_oracle w_s1.
Proof.
  destruct w_stages as (E1 & E2 & E3 & _).
  split; [rewrite w_s1_eq; vm_compute; reflexivity|]. split.
  { intros t k1 Ht E. exfalso. revert E. rewrite w_s1_txs in Ht. destruct Ht as [<-|[<-|[<-|[]]]]; vm_compute; discriminate. }
  rewrite w_s1_eq. split; [vm_compute; reflexivity|]. split; [vm_compute; reflexivity|].
  intros s2 s3. rewrite E1, E2. intros <-%ok_inj. rewrite E3. intros <-%ok_inj. split.
  - intros k1 p'' m Hk Hm. apply N.ltb_lt.
    apply (passes_ok _ (fun r => p_liqs (pool_at w_c2 k1) + snd r <? U128) (p'', m)) in Hm; [exact Hm|].
    destruct Hk as [<-|[<-|[<-|[]]]]; vm_compute; reflexivity.
  - intros k1 p1 Hk Ep. assert (Some p1 = Some (pool_at w_c3 k1)) as [= ->]; [rewrite <- Ep|split];
      destruct Hk as [<-|[<-|[<-|[]]]]; vm_compute; reflexivity.
Qed.

Lemma w_hist_bounds : hist_all w_oracle (bounds_step_ok w_K3 w_oracle) w_state w_hist.
Proof.
  cbn [hist_all w_hist]. split; [split; [exact w_hash_ok|intros t t' _ []]|]. split; [|exact I].
  cbn [bounds_step_ok]. split; [|exact w_s1_bounds].
  destruct w_hist_ok as (_ & H & _). exact H.
Qed.

(* what the history may issue (the cap of the peg nudge dominates it), and what exists before and after *)
Lemma w_hist_issued :
  hist_issuance w_K3 w_oracle Mel w_state w_hist = 1701411834604692317316873039158848057 /\
  held w_K3 Mel w_state = 1000 /\
  held w_K3 Mel (fold_left (hstep w_oracle) w_hist w_state) = 2000007989.
Proof. vm_compute. repeat split. Qed.

Lemma w_history_witness :
  Good2 w_state /\ hist_all w_oracle (bounds_step_ok w_K3 w_oracle) w_state w_hist /\
  hist_issuance w_K3 w_oracle Mel w_state w_hist = 1701411834604692317316873039158848057 /\
  held w_K3 Mel w_state = 1000 /\
  held w_K3 Mel (fold_left (hstep w_oracle) w_hist w_state) = 2000007989.
Proof. exact (conj w_state_good2 (conj w_hist_bounds w_hist_issued)). Qed.

(* ... and of STF/Proofs/Born.v: in the starting state the MEL/SYM pool does not exist and none of its tokens
   does, the batch issues none, and the block is sealed *)
Lemma w_born :
  Unborn w_K3 w_oracle MS w_state /\ Unborn w_K3 w_oracle ES w_state /\
  hist_all w_oracle (pool_bounds_step_ok w_K3 w_oracle MS) w_state ([HBatch w_header w_batch] ++ HBlock (Some w_action) w_header :: []) /\
  (exists sealed, seal w_oracle (fold_left (hstep w_oracle) [HBatch w_header w_batch] w_state) (Some w_action) = Ok sealed).
Proof.
  split; [split; [reflexivity|split; [vm_compute; discriminate|vm_compute; discriminate]]|].
  split; [split; [reflexivity|split; [vm_compute; discriminate|intros _; vm_compute; reflexivity]]|]. split.
  - pose proof w_hist_bounds as H. unfold w_hist in H. cbn [hist_all app] in *. destruct H as (A & B & _).
    split; [split; [exact A|vm_compute; reflexivity]|]. split; [split; [exact B|exact I]|exact I].
  - apply accepted_ex. vm_compute. reflexivity.
Qed.

(* ... and of [seal_total_from_born]: all three built-in pools are unborn in the starting state and the batch
   issues none of their tokens *)
Lemma w_total_from_born :
  Good2 w_state /\ (forall k, builtin k -> BornBacked w_K3 w_oracle k w_state) /\
  hist_all w_oracle (builtins_step_ok w_K3 w_oracle) w_state [HBatch w_header w_batch].
Proof.
  split; [exact w_state_good2|]. split.
  - intros k [-> | [-> | ->]]; right; (split; [reflexivity|split; [vm_compute; discriminate|]]).
    + vm_compute; discriminate.
    + vm_compute; discriminate.
    + intros _. vm_compute. reflexivity.
  - cbn [hist_all]. split; [|exact I]. intros k Hk.
    pose proof w_hist_bounds as H. unfold w_hist in H. cbn [hist_all] in H. destruct H as (A & _).
    split; [exact A|]. destruct Hk as [-> | [-> | ->]]; vm_compute; reflexivity.
Qed.
