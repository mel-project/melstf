(* C09 for apply_block as a whole: it panics only where one of its two parts does, or on its own assertion that
   there are at least two pools.  The lookup of the previous header (for the covenants and for the new header)
   cannot fail on the state apply_block builds; that applying the transactions and sealing do not panic is
   C09_batch_never_panics and C09_seal_total_in_reachable_states. *)
From MelVerif Require Import STF.Proofs.Tactics STF.Proofs.Frame STF.Proofs.Stakes STF.Proofs.Block
  STF.Proofs.NoPanicBatch.
From Coq Require Import ZifyN ZifyNat ZifyBool.
Open Scope N_scope.

Section ApplyBlock.
Variable SO : stf_oracle.
Variable rf : wstate -> roots.

Lemma last_header_of_basis s hdr : last_header_for SO rf (next_unsealed s hdr) = Ok hdr.
Proof.
  destruct (next_unsealed_link s hdr) as (Eheight & _ & Eparent & _). cbn zeta in *.
  unfold last_header_for. rewrite Eheight. replace (s_height s + 1 - 1) with (s_height s) by lia. rewrite Eparent. reflexivity.
Qed.

Lemma apply_block_unfold s hdr bh txs a :
  apply_block SO rf s hdr bh txs a =
  let basis := next_unsealed s hdr in
  if negb (pool_count_ok basis) then Panic P_ASSERT else
  b1 <- apply_tx_batch SO basis hdr txs ;;
  b2 <- seal SO b1 a ;;
  h2 <- header_of SO (rf b2) b2 ;;
  if bool_decide (h2 = bh) then Ok b2 else Reject EWrongHeader.
Proof. unfold apply_block, apply_batch. cbn zeta. rewrite last_header_of_basis. reflexivity. Qed.

Lemma header_of_after s hdr txs a b1 b2 :
  apply_tx_batch SO (next_unsealed s hdr) hdr txs = Ok b1 -> seal SO b1 a = Ok b2 ->
  exists h2, header_of SO (rf b2) b2 = Ok h2.
Proof.
  intros H1 H2.
  destruct (apply_tx_batch_frame SO _ _ _ _ H1) as (E1 & E2 & E3 & _).
  destruct (seal_frame SO _ _ _ H2) as (_ & N2 & N3 & _).
  destruct (next_unsealed_link s hdr) as (Eheight & _ & Eparent & _). cbn zeta in *.
  unfold header_of. rewrite N2, N3.
  assert (Eh: s_height b1 = s_height s + 1) by congruence.
  assert (Ehist: s_history b1 !! (s_height b1 - 1) = Some hdr).
  { rewrite Eh. replace (s_height s + 1 - 1) with (s_height s) by lia. congruence. }
  rewrite Ehist. destruct (s_height b1 =? 0); cbn [obind]; eauto.
Qed.

Theorem apply_block_never_panics s hdr bh txs a :
  pool_count_ok (next_unsealed s hdr) = true ->
  no_panic (apply_tx_batch SO (next_unsealed s hdr) hdr txs) ->
  (forall b1, apply_tx_batch SO (next_unsealed s hdr) hdr txs = Ok b1 -> no_panic (seal SO b1 a)) ->
  no_panic (apply_block SO rf s hdr bh txs a).
Proof.
  intros Hp Hb Hs. rewrite apply_block_unfold. cbn zeta. rewrite Hp. cbn [negb].
  apply no_panic_bind; [exact Hb|]. intros b1 H1.
  apply no_panic_bind; [apply Hs; exact H1|]. intros b2 H2.
  destruct (header_of_after s hdr txs a b1 b2 H1 H2) as [h2 E]. rewrite E. cbn [obind].
  destruct (bool_decide (h2 = bh)); exact I.
Qed.

Theorem apply_block_panics_without_pools s hdr bh txs a :
  pool_count_ok (next_unsealed s hdr) = false -> apply_block SO rf s hdr bh txs a = Panic P_ASSERT.
Proof. intros Hp. rewrite apply_block_unfold. cbn zeta. rewrite Hp. reflexivity. Qed.

Lemma pool_count_next s hdr : pool_count_ok (next_unsealed s hdr) = pool_count_ok s.
Proof. unfold pool_count_ok. rewrite next_unsealed_pools. reflexivity. Qed.
End ApplyBlock.
