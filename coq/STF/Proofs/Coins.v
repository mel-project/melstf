(* C02: the exact UTXO transition of an accepted batch.  On the way: the first pass as a fold of insert_coin over
   the bindings [tx_inserts] ([insert_outputs_ok], [insert_all_pairs]) and what the first phase collects
   ([load_relevant_coins_spec]). *)
From MelVerif Require Import STF.Proofs.Tactics STF.Proofs.MapLemmas STF.Proofs.Faucet.
Open Scope N_scope.

Section Coins.
Variable SO : stf_oracle.
Variable s : wstate.
Variable lh : header.

(* its faucet dedup marker, then those of its outputs that [relevant] knows (the others are sent to the
   destruction address) *)
Definition tx_inserts (relevant : gmap N cdh) (t : tx) : list (N * cdh) :=
  (if txkind_eqb (t_kind t) KFaucet && negb (is_bug_tx t) then [(marker_key SO t, marker_coin)] else [])
  ++ flat_map (fun '(i, _) =>
        let k := coin_key (t_hash t) (i mod 256) in
        match relevant !! k with Some c => [(k, c)] | None => [] end) (enumerate 0 (t_outputs t)).

Definition ins_pairs (tip : bool) (l : list (N * cdh)) (cn : gmap N cdh * gmap N N) : gmap N cdh * gmap N N :=
  fold_left (fun cn kv => insert_coin tip (fst kv) (snd kv) cn) l cn.

Lemma ins_pairs_app tip l1 l2 cn : ins_pairs tip (l1 ++ l2) cn = ins_pairs tip l2 (ins_pairs tip l1 cn).
Proof. apply fold_left_app. Qed.

Lemma ins_pairs_fst tip : forall l cn, fst (ins_pairs tip l cn) = ins_all l (fst cn).
Proof.
  induction l as [|[k c] l IH]; intros cn; [reflexivity|].
  cbn [ins_pairs ins_all fold_left fst snd]. fold (ins_pairs tip l (insert_coin tip k c cn)).
  rewrite IH, insert_coin_fst. reflexivity.
Qed.

Lemma outputs_fold_pairs (relevant : gmap N cdh) tip t : forall (l : list (N * coindata)) cn,
  fold_left (fun cn '(i, _) =>
      let k := coin_key (t_hash t) (i mod 256) in
      match relevant !! k with Some c => insert_coin tip k c cn | None => cn end) l cn
  = ins_pairs tip (flat_map (fun '(i, _) =>
      let k := coin_key (t_hash t) (i mod 256) in
      match relevant !! k with Some c => [(k, c)] | None => [] end) l) cn.
Proof.
  induction l as [|[i o] l IH]; intros cn; cbn [fold_left flat_map]; [reflexivity|].
  rewrite ins_pairs_app, IH. destruct (relevant !! _); reflexivity.
Qed.

Lemma insert_outputs_ok relevant tip t cn r :
  insert_outputs SO s relevant tip t cn = Ok r <->
  faucet_ok_at SO s (fst cn) t /\ r = ins_pairs tip (tx_inserts relevant t) cn.
Proof.
  unfold insert_outputs, tx_inserts, faucet_ok_at. fold (is_faucet t).
  rewrite ins_pairs_app, <- outputs_fold_pairs.
  destruct (is_faucet t); cbn [andb obind].
  - split.
    + intros H. inv_bind H as cn0 H0. apply handle_faucet_ok in H0 as [Hok ->]. injection H as <-.
      split; [intros _; exact Hok|]. destruct (is_bug_tx t); reflexivity.
    + intros [Hok ->]. rewrite (proj2 (handle_faucet_ok SO s tip t cn _) (conj (Hok eq_refl) eq_refl)).
      destruct (is_bug_tx t); reflexivity.
  - split; [intros H; injection H as <-; split; [discriminate|reflexivity]|intros [_ ->]; reflexivity].
Qed.

Lemma insert_all_pairs relevant tip : forall txs cn r,
  insert_all SO s relevant tip txs cn = Ok r -> r = ins_pairs tip (flat_map (tx_inserts relevant) txs) cn.
Proof.
  induction txs as [|t rest IH]; intros cn r H; cbn [insert_all] in H.
  - injection H as <-. reflexivity.
  - inv_bind H as cn1 H1. apply insert_outputs_ok in H1 as [_ ->].
    cbn [flat_map]. rewrite ins_pairs_app. apply IH. exact H.
Qed.

Lemma accepted_batch_pairs txs s' :
  apply_tx_batch SO s lh txs = Ok s' ->
  exists relevant, load_relevant_coins s txs = Ok relevant /\
    remove_coins (tip_906 s) (all_inputs txs)
      (ins_pairs (tip_906 s) (flat_map (tx_inserts relevant) txs) (s_coins s, s_counts s)) = Ok (s_coins s', s_counts s').
Proof.
  intros H. destruct (batch_two_passes _ _ _ _ _ H) as (relevant & cn & Hrel & Hins & Hrem).
  apply insert_all_pairs in Hins. subst cn. eauto.
Qed.

Theorem accepted_batch_coins txs s' :
  apply_tx_batch SO s lh txs = Ok s' ->
  exists relevant, load_relevant_coins s txs = Ok relevant /\
    s_coins s' = del_all (all_inputs txs) (ins_all (flat_map (tx_inserts relevant) txs) (s_coins s)).
Proof.
  intros H. destruct (accepted_batch_pairs _ _ H) as (relevant & Hrel & Hrem).
  exists relevant. split; [exact Hrel|].
  apply remove_coins_fst in Hrem. rewrite ins_pairs_fst in Hrem. exact Hrem.
Qed.

Definition outputs_map (txs : list tx) : gmap N cdh := batch_outputs (s_height s) txs.

Lemma dup_free_iff : forall ks seen,
  dup_free seen ks = true <-> NoDup ks /\ forall k, In k ks -> seen !! k = None.
Proof.
  induction ks as [|k ks IH]; intros seen; cbn [dup_free].
  - split; [intros _; split; [constructor|intros k []]|reflexivity].
  - destruct (seen !! k) eqn:E.
    + split; [discriminate|]. intros [_ H]. rewrite (H k (or_introl eq_refl)) in E. discriminate.
    + rewrite IH. split; intros [Hnd Hs].
      * split.
        -- constructor; [|exact Hnd]. intros Hin. specialize (Hs k Hin). rewrite lookup_insert in Hs. discriminate.
        -- intros k' [<-|Hin]; [exact E|]. specialize (Hs k' Hin).
           destruct (decide (k = k')) as [->|Hne]; [rewrite lookup_insert in Hs; discriminate|].
           rewrite lookup_insert_ne in Hs by exact Hne. exact Hs.
      * inversion Hnd as [|? ? Hni Hnd']; subst. split; [exact Hnd'|].
        intros k' Hk'. rewrite lookup_insert_ne; [apply Hs; right; exact Hk'|]. intros ->. contradiction.
Qed.

Lemma lookup_inputs_spec (acc coins : gmap N cdh) : forall ks m r,
  lookup_inputs acc coins ks m = Ok r ->
  (forall k, In k ks -> is_Some (acc !! k) \/ is_Some (coins !! k)) /\
  (forall k, In k ks -> acc !! k = None -> r !! k = coins !! k) /\
  (forall k, ~ In k ks \/ is_Some (acc !! k) -> r !! k = m !! k).
Proof.
  induction ks as [|k ks IH]; intros m r Hr; cbn [lookup_inputs] in Hr.
  - injection Hr as <-. split; [intros k []|]. split; [intros k []|intros k _; reflexivity].
  - destruct (acc !! k) as [c|] eqn:Ea.
    + destruct (IH _ _ Hr) as (H1 & H2 & H3). split; [|split].
      * intros k' [<-|Hin]; [left; rewrite Ea; eauto|auto].
      * intros k' [<-|Hin] E; [congruence|auto].
      * intros k' [Hn|Hs]; apply H3; [left; intros Hin; apply Hn; right; exact Hin|right; exact Hs].
    + destruct (coins !! k) as [c|] eqn:Ec; [|discriminate].
      destruct (IH _ _ Hr) as (H1 & H2 & H3). split; [|split].
      * intros k' [<-|Hin]; [right; rewrite Ec; eauto|auto].
      * intros k' Hin E. destruct (in_dec N.eq_dec k' ks) as [Hk|Hk]; [auto|].
        destruct Hin as [<-|Hin]; [|contradiction]. rewrite (H3 k (or_introl Hk)), lookup_insert. symmetry. exact Ec.
      * (* such a key is not [k], which is an input that [acc] does not know *)
        intros k' Hk'. assert (k <> k') by (intros <-; destruct Hk' as [Hn|[? Hs]]; [apply Hn; left; reflexivity|congruence]).
        rewrite H3; [apply lookup_insert_ne; assumption|].
        destruct Hk' as [Hn|Hs]; [left; intros Hin; apply Hn; right; exact Hin|right; exact Hs].
Qed.

Theorem load_relevant_coins_spec txs relevant :
  load_relevant_coins s txs = Ok relevant ->
  (forall t, In t txs -> well_formed t = true /\ totals_fit t = true) /\
  NoDup (all_inputs txs) /\
  (forall k, In k (all_inputs txs) -> is_Some (outputs_map txs !! k) \/ is_Some (s_coins s !! k)) /\
  (forall k, In k (all_inputs txs) ->
     relevant !! k = match outputs_map txs !! k with Some c => Some c | None => s_coins s !! k end) /\
  (forall k, ~ In k (all_inputs txs) -> relevant !! k = outputs_map txs !! k).
Proof.
  unfold load_relevant_coins. fold (outputs_map txs).
  destruct (forallb (fun t => well_formed t && totals_fit t) txs) eqn:Hwf; [|discriminate]. cbn [negb].
  intros H. inv_bind H as ins Hins.
  destruct (dup_free ∅ (all_inputs txs)) eqn:Hd; [|discriminate]. injection H as <-.
  apply dup_free_iff in Hd as [Hnd _].
  destruct (lookup_inputs_spec _ _ _ _ _ Hins) as (G1 & G2 & G3).
  split.
  { intros t Ht. rewrite forallb_forall in Hwf. specialize (Hwf t Ht). apply andb_true_iff in Hwf. exact Hwf. }
  split; [exact Hnd|]. split; [exact G1|]. split.
  - intros k Hin. rewrite lookup_union. destruct (outputs_map txs !! k) as [c|] eqn:E.
    + rewrite (G3 k) by (right; rewrite E; eauto). rewrite lookup_empty. reflexivity.
    + rewrite (G2 k Hin E). destruct (s_coins s !! k); reflexivity.
  - intros k Hn. rewrite lookup_union, (G3 k (or_introl Hn)), lookup_empty. destruct (outputs_map txs !! k); reflexivity.
Qed.

Lemma relevant_input txs relevant k :
  load_relevant_coins s txs = Ok relevant -> In k (all_inputs txs) ->
  relevant !! k = match outputs_map txs !! k with Some c => Some c | None => s_coins s !! k end.
Proof. intros H. apply (load_relevant_coins_spec _ _ H). Qed.

Lemma relevant_other txs relevant k :
  load_relevant_coins s txs = Ok relevant -> ~ In k (all_inputs txs) -> relevant !! k = outputs_map txs !! k.
Proof. intros H. apply (load_relevant_coins_spec _ _ H). Qed.

Definition created (txs : list tx) : list (N * cdh) := flat_map (output_coins (s_height s)) txs.
Definition markers (txs : list tx) : list N :=
  map (marker_key SO) (List.filter (fun t => txkind_eqb (t_kind t) KFaucet && negb (is_bug_tx t)) txs).

Lemma outputs_map_ins_all txs : outputs_map txs = ins_all (created txs) ∅.
Proof.
  unfold outputs_map, batch_outputs, created. generalize (∅ : gmap N cdh) as m.
  induction txs as [|t r IH]; intros m; cbn [fold_left flat_map]; [reflexivity|].
  rewrite ins_all_app, IH. reflexivity.
Qed.

Lemma in_tx_inserts relevant t k c :
  In (k, c) (tx_inserts relevant t) <->
  (txkind_eqb (t_kind t) KFaucet && negb (is_bug_tx t) = true /\ k = marker_key SO t /\ c = marker_coin) \/
  (exists i o, In (i, o) (enumerate 0 (t_outputs t)) /\ k = coin_key (t_hash t) (i mod 256) /\ relevant !! k = Some c).
Proof.
  unfold tx_inserts. rewrite in_app_iff, in_flat_map. split.
  - intros [H|([i o] & Hin & H)].
    + left. destruct (_ && _); [|contradiction]. destruct H as [E|[]]. injection E as <- <-. auto.
    + right. exists i, o. split; [exact Hin|]. cbn zeta in H.
      destruct (relevant !! coin_key (t_hash t) (i mod 256)) as [c'|] eqn:E; [|contradiction].
      destruct H as [E2|[]]. injection E2 as <- <-. auto.
  - intros [(Hf & -> & ->)|(i & o & Hin & -> & Hr)].
    + left. rewrite Hf. left. reflexivity.
    + right. exists (i, o). split; [exact Hin|]. cbn zeta. rewrite Hr. left. reflexivity.
Qed.

Lemma in_created_key txs k c :
  In (k, c) (created txs) ->
  exists t i o, In t txs /\ In (i, o) (enumerate 0 (t_outputs t)) /\ k = coin_key (t_hash t) (i mod 256).
Proof.
  unfold created, output_coins. intros H. apply in_flat_map in H as (t & Ht & H).
  apply in_flat_map in H as ([i o] & Hin & H). destruct (cd_covhash o =? 0); [contradiction|].
  destruct H as [E|[]]. injection E as <- _. eauto 7.
Qed.

(* created coins are a function of the key (through [relevant]); markers are kept apart from output ids by hypothesis *)
Lemma batch_inserts_consistent relevant txs :
  (forall t t' i, In t txs -> In t' txs -> marker_key SO t <> coin_key (t_hash t') (i mod 256)) ->
  consistent (flat_map (tx_inserts relevant) txs).
Proof.
  intros Hmk k v1 v2 H1 H2.
  apply in_flat_map in H1 as (t1 & Ht1 & H1). apply in_flat_map in H2 as (t2 & Ht2 & H2).
  apply in_tx_inserts in H1 as [(_ & E1 & ->)|(i1 & o1 & _ & E1 & R1)];
  apply in_tx_inserts in H2 as [(_ & E2 & ->)|(i2 & o2 & _ & E2 & R2)].
  - reflexivity.
  - exfalso. apply (Hmk t1 t2 i2 Ht1 Ht2). congruence.
  - exfalso. apply (Hmk t2 t1 i1 Ht2 Ht1). congruence.
  - congruence.
Qed.

(* C02 as a set equation, under the assumptions that keep coin ids apart: what the batch spends is gone, what
   it creates and the markers of its faucets are there, every other id is as it was *)
Theorem accepted_batch_utxo txs s' :
  apply_tx_batch SO s lh txs = Ok s' ->
  (* created coin ids are bound consistently (distinct transactions have distinct hashes) and dedup
     markers are not coin ids of outputs *)
  consistent (created txs) ->
  (forall t t' i, In t txs -> In t' txs -> marker_key SO t <> coin_key (t_hash t') (i mod 256)) ->
  forall k,
    (In k (all_inputs txs) -> s_coins s' !! k = None) /\
    (~ In k (all_inputs txs) ->
       (forall c, In (k, c) (created txs) -> s_coins s' !! k = Some c) /\
       (In k (markers txs) -> s_coins s' !! k = Some marker_coin) /\
       (~ In k (map fst (created txs)) -> ~ In k (markers txs) -> s_coins s' !! k = s_coins s !! k)).
Proof.
  intros H Hcons Hmk k.
  destruct (accepted_batch_coins _ _ H) as (relevant & Hrel & ->).
  split; [apply del_all_in|]. intros Hk. rewrite !del_all_notin by exact Hk.
  (* for a key that is not spent, [relevant] is the map of created coins *)
  assert (Hr: forall c, relevant !! k = Some c <-> In (k, c) (created txs)).
  { intros c. rewrite (relevant_other _ _ k Hrel Hk), outputs_map_ins_all. split; [|apply ins_all_in; exact Hcons].
    intros E. apply ins_all_Some in E as [E|[E _]]; [exact E|]. rewrite lookup_empty in E. discriminate. }
  set (L := flat_map (tx_inserts relevant) txs).
  (* so its bindings in L are: the marker coin if it is a marker, the coins created under it *)
  assert (HL: forall c, In (k, c) L <-> (In k (markers txs) /\ c = marker_coin) \/ In (k, c) (created txs)).
  { intros c. unfold L, markers. rewrite in_flat_map, in_map_iff. split.
    - intros (t & Ht & Hin). apply in_tx_inserts in Hin as [(Hf & -> & ->)|(i & o & Hio & -> & Hrc)].
      + left. split; [|reflexivity]. exists t. split; [reflexivity|]. apply filter_In. auto.
      + right. apply Hr. exact Hrc.
    - intros [[(t & <- & Ht) ->]|Hc].
      + apply filter_In in Ht as [Ht Hf]. exists t. split; [exact Ht|]. apply in_tx_inserts. left. auto.
      + destruct (in_created_key _ _ _ Hc) as (t & i & o & Ht & Hio & Ek). exists t. split; [exact Ht|].
        apply in_tx_inserts. right. exists i, o. split; [exact Hio|]. split; [exact Ek|]. apply Hr. exact Hc. }
  pose proof (fun v => ins_all_in L (s_coins s) k v (batch_inserts_consistent relevant txs Hmk)) as Hone.
  split; [|split].
  - intros c Hc. apply Hone, HL. right. exact Hc.
  - intros Hm. apply Hone, HL. left. auto.
  - intros Hnc Hnm. apply ins_all_notin. intros HinL. apply in_map_iff in HinL as ([k2 c] & E & HinL).
    cbn in E. subst k2. apply HL in HinL as [[Hm _]|Hc]; [exact (Hnm Hm)|].
    apply Hnc. apply in_map_fst. eauto.
Qed.
End Coins.
