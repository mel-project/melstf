(* C13: staking lock and voting power; the DOSC speed an accepted batch records (C18).  Also the inversion of apply_tx_batch ([apply_tx_batch_ok], [Accepts])
   that the theorems about an accepted batch start from. *)
From MelVerif Require Import STF.Proofs.Tactics.
Open Scope N_scope.

Section Stakes.
Variable SO : stf_oracle.
Variable s : wstate.
Variable lh : header.

Definition legacy500 : bool := legacy_net s && (s_height s <? 500000).
Definition legacy900 : bool := legacy_net s && (s_height s <? 900000).

Definition registers (t : tx) : option stakedoc :=
  if txkind_eqb (t_kind t) KStake && negb legacy500 then
    match t_stakedoc t, t_outputs t with
    | Some d, first :: _ =>
      if denom_eqb (cd_denom first) Sym && stake_consistent d (s_height s / STAKE_EPOCH) first then Some d else None
    | _, _ => None
    end
  else None.

(* false exactly for a stake transaction that makes load_stake_info reject the whole batch as malformed: no
   decodable stake document, no output, or a first output that is not SYM *)
Definition stake_tx_ok (t : tx) : bool :=
  negb (txkind_eqb (t_kind t) KStake && negb legacy500) ||
  match t_stakedoc t, t_outputs t with
  | Some _, first :: _ => denom_eqb (cd_denom first) Sym
  | _, _ => false
  end.

Definition stake_fold (txs : list tx) (acc : gmap N stakedoc) : gmap N stakedoc :=
  fold_left (fun m t => match registers t with Some d => <[t_hash t := d]> m | None => m end) txs acc.

Lemma load_stake_info_step t r acc :
  load_stake_info s (t :: r) acc =
  if stake_tx_ok t
  then load_stake_info s r (match registers t with Some d => <[t_hash t := d]> acc | None => acc end)
  else Reject EMalformed.
Proof.
  cbn [load_stake_info]. unfold stake_tx_ok, registers. fold legacy500.
  destruct (txkind_eqb (t_kind t) KStake); cbn [andb negb orb]; [|reflexivity].
  destruct legacy500; cbn [negb orb andb]; [reflexivity|].
  destruct (t_stakedoc t) as [d|]; [|reflexivity].
  destruct (t_outputs t) as [|first rest]; [reflexivity|].
  destruct (denom_eqb (cd_denom first) Sym); cbn [negb andb]; [|reflexivity].
  destruct (stake_consistent d (s_height s / STAKE_EPOCH) first); reflexivity.
Qed.

Lemma load_stake_info_spec : forall txs acc,
  load_stake_info s txs acc =
  if forallb stake_tx_ok txs then Ok (stake_fold txs acc) else Reject EMalformed.
Proof.
  induction txs as [|t r IH]; intros acc; [reflexivity|].
  rewrite load_stake_info_step. cbn [forallb stake_fold fold_left].
  destruct (stake_tx_ok t); cbn [andb]; [apply IH|reflexivity].
Qed.

(* a stake is registered exactly when: kind Stake, decodable document, first output SYM equal to the declared
   amount, starting in a future epoch and ending after it starts *)
Theorem registers_iff t d :
  registers t = Some d <->
  t_kind t = KStake /\ legacy500 = false /\ t_stakedoc t = Some d /\
  exists first rest, t_outputs t = first :: rest /\ cd_denom first = Sym /\
    s_height s / STAKE_EPOCH < sd_start d /\ sd_start d < sd_postend d /\ sd_staked d = cd_value first.
Proof.
  unfold registers, stake_consistent. split.
  - destruct (t_kind t) eqn:K; cbn; try discriminate.
    destruct legacy500; cbn; [discriminate|].
    destruct (t_stakedoc t) as [d'|]; [|discriminate].
    destruct (t_outputs t) as [|first rest]; [discriminate|].
    destruct (cd_denom first) eqn:D; cbn; try discriminate.
    destruct (N.ltb_spec (s_height s / STAKE_EPOCH) (sd_start d')) as [H1|]; cbn; [|discriminate].
    destruct (N.ltb_spec (sd_start d') (sd_postend d')) as [H2|]; cbn; [|discriminate].
    destruct (N.eqb_spec (sd_staked d') (cd_value first)) as [H3|]; cbn; [|discriminate].
    intros H. injection H as <-. repeat split; eauto 10.
  - intros (K & L & D & first & rest & O & Dn & H1 & H2 & H3).
    rewrite K, L, D, O, Dn. cbn.
    destruct (N.ltb_spec (s_height s / STAKE_EPOCH) (sd_start d)) as [_|?]; [|lia].
    destruct (N.ltb_spec (sd_start d) (sd_postend d)) as [_|?]; [|lia].
    rewrite H3, N.eqb_refl. reflexivity.
Qed.

Lemma check_inputs_unlocked relevant new_stakes t : forall ins idx good inc r,
  check_inputs SO s lh relevant new_stakes t idx ins good inc = Ok r ->
  forall i, In i ins -> coin_locked s new_stakes (fst i) = false.
Proof.
  induction ins as [|i0 ins IH]; intros idx good inc r H i Hin; [contradiction|].
  cbn [check_inputs] in H. inv_bind H.
  destruct Hin as [<-|Hin].
  - unfold check_input in Ha. destruct (coin_locked s new_stakes (fst i0)); [discriminate|reflexivity].
  - eapply IH; eauto.
Qed.

Lemma spend_and_pay_ok tip t n n' :
  spend_and_pay tip t n = Ok n' <->
  exists cn mf, remove_coins tip (map input_key (t_inputs t)) (s_coins n, s_counts n) = Ok cn /\
    min_fee (s_fee_mult n) t = Ok mf /\ mf <= t_fee t /\
    n' = set_txs (set_fees (set_coins n (fst cn) (snd cn)) (sat_add128 (s_fee_pool n) mf)
                   (sat_add128 (s_tips n) (t_fee t - mf))) (<[t_hash t := t]> (s_txs n)).
Proof.
  unfold spend_and_pay. split.
  - intros H. inv_bind H as cn Hcn. inv_bind H as mf Hmf.
    destruct (N.ltb_spec (t_fee t) mf); [discriminate|]. injection H as <-. eauto 10.
  - intros (cn & mf & -> & -> & Hle & ->). cbn [obind].
    destruct (N.ltb_spec (t_fee t) mf); [lia|reflexivity].
Qed.

Lemma spend_all_frame tip : forall txs n n', spend_all tip txs n = Ok n' ->
  exists c k fp tp m, n' = set_txs (set_fees (set_coins n c k) fp tp) m.
Proof.
  induction txs as [|t r IH]; intros n n' H; cbn [spend_all] in H.
  - injection H as <-. exists (s_coins n), (s_counts n), (s_fee_pool n), (s_tips n), (s_txs n). destruct n; reflexivity.
  - inv_bind H as n1 H1. apply spend_and_pay_ok in H1 as (cn & mf & _ & _ & _ & ->).
    apply IH in H as (c & k & fp & tp & m & ->). exists c, k, fp, tp, m. reflexivity.
Qed.

Lemma create_next_state_frame relevant tip txs n n' :
  create_next_state SO s relevant tip txs n = Ok n' ->
  exists c k fp tp m, n' = set_txs (set_fees (set_coins n c k) fp tp) m.
Proof.
  unfold create_next_state. intros H. inv_bind H as cn Hcn.
  apply spend_all_frame in H as (c & k & fp & tp & m & ->). exists c, k, fp, tp, m. reflexivity.
Qed.

Lemma fold_max_ge : forall (l : list (res N)) a b, a <= b ->
  a <= fold_left (fun a r => match r with Ok v => N.max a v | _ => a end) l b.
Proof.
  induction l as [|r l IH]; intros a b Hab; cbn [fold_left]; [exact Hab|].
  apply IH. destruct r; lia.
Qed.

Definition is_mint (t : tx) : bool := txkind_eqb (t_kind t) KDoscMint.

Definition speed_after (rel : gmap N cdh) (txs : list tx) : N :=
  fold_left (fun a r => match r with Ok v => N.max a v | _ => a end)
            (map (validate_doscmint SO s rel) (List.filter is_mint txs)) (s_dosc_speed s).

(* what the phases before create_next_state check of one transaction *)
Definition tx_accepts (rel : gmap N cdh) (ns : gmap N stakedoc) (t : tx) : Prop :=
  stake_tx_ok t = true /\ check_tx_validity SO s lh rel ns t = Ok tt /\
  (is_mint t = true -> exists v, validate_doscmint SO s rel t = Ok v).

Record Accepts (txs : list tx) (rel : gmap N cdh) : Prop := {
  acc_rel : load_relevant_coins s txs = Ok rel;
  acc_each : forall t, In t txs -> tx_accepts rel (stake_fold txs ∅) t
}.

Lemma apply_tx_batch_ok txs s' :
  apply_tx_batch SO s lh txs = Ok s' <->
  exists rel n, Accepts txs rel /\ create_next_state SO s rel (tip_906 s) txs s = Ok n /\
    s' = set_speed_stakes n (speed_after rel txs) (stake_fold txs ∅ ∪ s_stakes s).
Proof.
  unfold apply_tx_batch. split.
  - intros H. inv_bind H as rel Hrel. inv_bind H as new_stakes Hst.
    rewrite load_stake_info_spec in Hst.
    destruct (forallb stake_tx_ok txs) eqn:Hok; [|discriminate]. injection Hst as <-.
    inv_bind H as u1 Hval. destruct u1. inv_bind H as u2 Hdm. destruct u2.
    inv_bind H as n Hn. injection H as <-.
    exists rel, n. split; [|split; [exact Hn|]].
    + constructor; [exact Hrel|]. intros t Ht. split; [exact (proj1 (forallb_forall _ _) Hok t Ht)|]. split.
      * exact (proj1 (first_error_units _ _) Hval t Ht).
      * intros Hm. apply (proj1 (first_error_map_ok _ _) Hdm). apply filter_In. auto.
    + destruct (create_next_state_frame _ _ _ _ _ Hn) as (c & k & fp & tp & m & ->). reflexivity.
  - intros (rel & n & [Hrel Hall] & Hn & ->).
    rewrite Hrel. cbn [obind]. rewrite load_stake_info_spec.
    rewrite (proj2 (forallb_forall _ _)) by (intros t Ht; apply (Hall t Ht)). cbn [obind].
    rewrite (proj2 (first_error_units _ _)) by (intros t Ht; apply (Hall t Ht)). cbn [obind].
    rewrite (proj2 (first_error_map_ok _ _)) by (intros t Ht; apply filter_In in Ht as [Ht Hm]; exact (proj2 (proj2 (Hall t Ht)) Hm)).
    cbn [obind]. rewrite Hn. cbn [obind].
    destruct (create_next_state_frame _ _ _ _ _ Hn) as (c & k & fp & tp & m & ->). reflexivity.
Qed.

Theorem apply_tx_batch_frame txs s' :
  apply_tx_batch SO s lh txs = Ok s' ->
  s_height s' = s_height s /\ s_network s' = s_network s /\ s_history s' = s_history s /\
  s_pools s' = s_pools s /\ s_fee_mult s' = s_fee_mult s.
Proof.
  intros H. apply apply_tx_batch_ok in H as (rel & n & _ & Hn & ->).
  destruct (create_next_state_frame _ _ _ _ _ Hn) as (c & k & fp & tp & m & ->). cbn. auto.
Qed.

Lemma apply_tx_batch_tip906 txs s' : apply_tx_batch SO s lh txs = Ok s' -> tip_906 s' = tip_906 s.
Proof.
  intros H. destruct (apply_tx_batch_frame _ _ H) as (Eh & En & _).
  unfold tip_906, tip_condition. rewrite Eh, En. reflexivity.
Qed.

Theorem accepted_batch_spends_no_locked_coin txs s' :
  apply_tx_batch SO s lh txs = Ok s' ->
  forall t i, In t txs -> In i (t_inputs t) ->
  legacy900 = true \/ (s_stakes s !! fst i = None /\ stake_fold txs ∅ !! fst i = None).
Proof.
  intros H t i Ht Hi.
  apply apply_tx_batch_ok in H as (rel & n & A & _).
  destruct (acc_each _ _ A t Ht) as (_ & Hval & _). unfold check_tx_validity in Hval. inv_bind Hval as inc Hinc.
  pose proof (check_inputs_unlocked _ _ _ _ _ _ _ _ Hinc i Hi) as L.
  unfold coin_locked in L. fold legacy900 in L.
  destruct legacy900; [left; reflexivity|right].
  cbn [negb andb] in L. rewrite andb_true_r in L. apply orb_false_iff in L as [L1 L2].
  split.
  - destruct (s_stakes s !! fst i); [discriminate|reflexivity].
  - destruct (stake_fold txs ∅ !! fst i); [discriminate|reflexivity].
Qed.

Theorem accepted_batch_stakes txs s' :
  apply_tx_batch SO s lh txs = Ok s' -> s_stakes s' = stake_fold txs ∅ ∪ s_stakes s.
Proof.
  intros H. apply apply_tx_batch_ok in H as (rel & n & _ & _ & ->). reflexivity.
Qed.

Theorem accepted_batch_speed_monotone txs s' :
  apply_tx_batch SO s lh txs = Ok s' -> s_dosc_speed s <= s_dosc_speed s'.
Proof.
  intros H. apply apply_tx_batch_ok in H as (rel & n & _ & _ & ->). apply fold_max_ge. lia.
Qed.
End Stakes.
Arguments acc_rel {SO s lh txs rel}.
Arguments acc_each {SO s lh txs rel}.

(* lifetime: at every block boundary exactly the stakes with e_post_end >= new epoch survive *)
Theorem unlock_old_lookup epoch st k d :
  unlock_old epoch st !! k = Some d <-> st !! k = Some d /\ epoch <= sd_postend d.
Proof. unfold unlock_old. rewrite map_filter_lookup_Some. cbn. reflexivity. Qed.

Theorem next_unsealed_stakes s hdr k d :
  s_stakes (next_unsealed s hdr) !! k = Some d <->
  s_stakes s !! k = Some d /\ (s_height s + 1) / STAKE_EPOCH <= sd_postend d.
Proof.
  unfold next_unsealed.
  destruct (tip_906 _ && negb (tip_906 s)); cbn [s_stakes set_coins]; apply unlock_old_lookup.
Qed.

(* so a stake with end field e is still locked in every block of epoch e and free from epoch e+1 on *)
Corollary stake_lifetime s hdr k d :
  s_stakes s !! k = Some d ->
  (s_stakes (next_unsealed s hdr) !! k = Some d <-> (s_height s + 1) / STAKE_EPOCH <= sd_postend d).
Proof. intros H. rewrite next_unsealed_stakes. tauto. Qed.

Lemma votes_def st epoch key :
  votes st epoch key =
  map_fold (fun _ d acc => if (sd_start d <=? epoch) && (epoch <? sd_postend d) && (sd_pubkey d =? key)
                           then acc + sd_staked d else acc) 0 st.
Proof. reflexivity. Qed.
