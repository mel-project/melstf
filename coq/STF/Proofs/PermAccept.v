(* The state an accepted batch ends in as a function of the old state and the batch, and when a batch is
   accepted ([apply_tx_batch_char]); from it C03: acceptance and the whole resulting state do not depend on the
   order of presentation. *)
From MelVerif Require Import STF.Proofs.Tactics STF.Proofs.MapLemmas STF.Proofs.Stakes STF.Proofs.Faucet
  STF.Proofs.Coins STF.Proofs.Fees STF.Proofs.Counts STF.Proofs.Perm.
From MelVerif Require Import STF.Proofs.HashFacts STF.Proofs.BatchSupply.
From Coq Require Import ZifyN ZifyNat ZifyBool.
Open Scope N_scope.

Section PermAccept.
Variable SO : stf_oracle.
Variable s : wstate.
Variable lh : header.

(* the marker of a later faucet is not among the keys an earlier transaction inserts, so each faucet is judged
   against the coins the pass started from *)
Lemma insert_all_complete relevant tip : forall txs cn, HashOK SO s txs ->
  (forall t, In t txs -> faucet_ok_at SO s (fst cn) t) ->
  insert_all SO s relevant tip txs cn = Ok (ins_pairs tip (flat_map (tx_inserts SO relevant) txs) cn).
Proof.
  induction txs as [|t l IH]; intros cn HK Hfa; cbn [insert_all flat_map]; [reflexivity|].
  rewrite (proj2 (insert_outputs_ok SO s relevant tip t cn _) (conj (Hfa t (or_introl eq_refl)) eq_refl)).
  cbn [obind]. rewrite ins_pairs_app.
  apply IH; [apply (HashOK_cons SO s t l HK)|].
  intros t' Ht' Hf'. rewrite ins_pairs_fst, ins_all_notin; [apply Hfa; [right; exact Ht'|exact Hf']|].
  intros Hin. apply insert_key_cases in Hin as [(_ & E)|(io & Hio & E)].
  - exact (hk_marker_head_ne SO s t l t' HK Ht' E).
  - apply (hk_marker_not_out SO s _ HK t' (or_intror Ht')). rewrite E. apply in_out_keys; [left; reflexivity|exact Hio].
Qed.

(* the counts are a function of the coins *)
Lemma counts_ok_iff coins n : CountsOk (coins, n) <-> n = tip906_transition coins ∅.
Proof.
  split; [|intros ->; apply tip906_transition_counts_ok].
  intros H. apply map_eq. intros h. exact (eq_trans (H h) (eq_sym (tip906_transition_counts_ok coins h))).
Qed.

Definition counts_after (tip : bool) (coins : gmap N cdh) (old : gmap N N) : gmap N N :=
  if tip then tip906_transition coins ∅ else old.

Lemma ins_pairs_char tip (l : list (N * cdh)) cn :
  (tip = true -> CountsOk cn) -> NoDup (map fst l) -> (forall k, In k (map fst l) -> fst cn !! k = None) ->
  ins_pairs tip l cn = (ins_all l (fst cn), counts_after tip (ins_all l (fst cn)) (snd cn)).
Proof.
  intros Hok Hnd Hfresh. rewrite <- (ins_pairs_fst tip l cn). destruct tip; cbn [counts_after].
  - pose proof (ins_pairs_counts_ok l cn (Hok eq_refl) Hnd Hfresh) as O.
    destruct (ins_pairs true l cn) as [c n]. apply counts_ok_iff in O. subst n. reflexivity.
  - rewrite <- (ins_pairs_false_counts l cn). apply surjective_pairing.
Qed.

Lemma remove_coins_false : forall ks cn, remove_coins false ks cn = Ok (del_all ks (fst cn), snd cn).
Proof.
  induction ks as [|k ks IH]; intros [coins counts]; cbn [remove_coins del_all fold_left fst snd]; [reflexivity|].
  cbn [remove_coin obind]. rewrite IH. reflexivity.
Qed.

Lemma remove_coins_char tip ks cn :
  (tip = true -> CountsOk cn) ->
  remove_coins tip ks cn = Ok (del_all ks (fst cn), counts_after tip (del_all ks (fst cn)) (snd cn)).
Proof.
  intros Hok. destruct tip; cbn [counts_after]; [|apply remove_coins_false].
  destruct (remove_coins_counts_ok ks cn (Hok eq_refl)) as ([c n] & E & O). rewrite E.
  apply remove_coins_fst in E. cbn [fst] in E. subst c. apply counts_ok_iff in O. subst n. reflexivity.
Qed.

(* The state an accepted batch ends in, in closed form.  The model threads (coins, counts) through one
   insert_coin per binding and one remove_coin per input; when the inserted keys are distinct and new (HashOK)
   the coins are one [ins_all] followed by one [del_all], and the counts, being determined by the coins, need no
   pass at all.  Fees and tips are left as parameters: [fee_fold] computes them. *)
Definition batch_coins (rel : gmap N cdh) (txs : list tx) : gmap N cdh :=
  del_all (all_inputs txs) (ins_all (flat_map (tx_inserts SO rel) txs) (s_coins s)).

Definition batch_post (rel : gmap N cdh) (txs : list tx) (fp tp : N) : wstate :=
  {| s_network := s_network s; s_height := s_height s; s_history := s_history s;
     s_coins := batch_coins rel txs;
     s_counts := counts_after (tip_906 s) (batch_coins rel txs) (s_counts s);
     s_txs := ins_all (tx_bindings txs) (s_txs s); s_fee_pool := fp; s_fee_mult := s_fee_mult s; s_tips := tp;
     s_dosc_speed := speed_after SO s rel txs; s_pools := s_pools s;
     s_stakes := stake_fold s txs ∅ ∪ s_stakes s |}.

Lemma create_next_state_char rel txs :
  HashOK SO s txs -> short_outputs txs -> (tip_906 s = true -> CountsOk (s_coins s, s_counts s)) ->
  (forall t, In t txs -> faucet_ok SO s t) ->
  forall n, create_next_state SO s rel (tip_906 s) txs s = Ok n <->
    exists fp tp, fee_fold (s_fee_mult s) txs (s_fee_pool s) (s_tips s) = Some (fp, tp) /\
      n = set_txs (set_fees (set_coins s (batch_coins rel txs)
                               (counts_after (tip_906 s) (batch_coins rel txs) (s_counts s))) fp tp)
                  (ins_all (tx_bindings txs) (s_txs s)).
Proof.
  intros HK Hs Hc Hfa n. rewrite create_next_state_ok.
  set (c1 := ins_all (flat_map (tx_inserts SO rel) txs) (s_coins s)).
  assert (E1: insert_all SO s rel (tip_906 s) txs (s_coins s, s_counts s)
              = Ok (c1, counts_after (tip_906 s) c1 (s_counts s))).
  { rewrite insert_all_complete by assumption. f_equal.
    apply ins_pairs_char; [exact Hc|apply (batch_inserts_nodup SO s); assumption|exact (hk_inserts_fresh SO s rel txs HK Hfa)]. }
  assert (E2: remove_coins (tip_906 s) (all_inputs txs) (c1, counts_after (tip_906 s) c1 (s_counts s))
              = Ok (batch_coins rel txs, counts_after (tip_906 s) (batch_coins rel txs) (s_counts s))).
  { rewrite remove_coins_char; cbn [fst snd].
    - unfold batch_coins. fold c1. destruct (tip_906 s); reflexivity.
    - intros ->. apply tip906_transition_counts_ok. }
  split.
  - intros (cn & cn' & fp & tp & Hcn & Hcn' & Hf & ->). rewrite E1 in Hcn. injection Hcn as <-.
    rewrite E2 in Hcn'. injection Hcn' as <-. eauto.
  - intros (fp & tp & Hf & ->). eexists _, _, fp, tp. eauto.
Qed.

Theorem apply_tx_batch_char txs s' :
  HashOK SO s txs -> (tip_906 s = true -> CountsOk (s_coins s, s_counts s)) ->
  (apply_tx_batch SO s lh txs = Ok s' <-> exists rel fp tp,
     Accepts SO s lh txs rel /\ (forall t, In t txs -> faucet_ok SO s t) /\
     fee_fold (s_fee_mult s) txs (s_fee_pool s) (s_tips s) = Some (fp, tp) /\ s' = batch_post rel txs fp tp).
Proof.
  intros HK Hc. split.
  - intros H. pose proof (accepted_faucet_ok SO s lh txs s' H) as Hfa.
    apply apply_tx_batch_ok in H as (rel & n & A & Hn & ->).
    apply (create_next_state_char rel txs HK (load_relevant_short s _ _ (acc_rel A)) Hc Hfa) in Hn as (fp & tp & Hf & ->).
    exists rel, fp, tp. auto.
  - intros (rel & fp & tp & A & Hfa & Hf & ->). apply apply_tx_batch_ok. exists rel. eexists.
    split; [exact A|]. split.
    + apply (create_next_state_char rel txs HK (load_relevant_short s _ _ (acc_rel A)) Hc Hfa). eauto.
    + reflexivity.
Qed.

Definition stake_bindings (txs : list tx) : list (N * stakedoc) :=
  flat_map (fun t => match registers s t with Some d => [(t_hash t, d)] | None => [] end) txs.

Lemma stake_fold_ins_all : forall txs acc, stake_fold s txs acc = ins_all (stake_bindings txs) acc.
Proof.
  unfold stake_fold, stake_bindings. induction txs as [|t txs IH]; intros acc; cbn [fold_left flat_map]; [reflexivity|].
  rewrite ins_all_app, IH. destruct (registers s t); reflexivity.
Qed.

Lemma stake_bindings_consistent txs : NoDup (map t_hash txs) -> consistent (stake_bindings txs).
Proof.
  intros Hnd k v1 v2 H1 H2. unfold stake_bindings in H1, H2.
  apply in_flat_map in H1 as (t1 & Ht1 & H1). apply in_flat_map in H2 as (t2 & Ht2 & H2).
  destruct (registers s t1) as [d1|] eqn:E1; [|contradiction]. destruct (registers s t2) as [d2|] eqn:E2; [|contradiction].
  destruct H1 as [E|[]]. injection E as <- <-. destruct H2 as [E|[]]. injection E as Eh <-.
  assert (t1 = t2) by (eapply hash_inj; eauto).
  subst t2. congruence.
Qed.

Lemma stake_fold_perm txs1 txs2 acc :
  Permutation txs1 txs2 -> NoDup (map t_hash txs1) -> stake_fold s txs1 acc = stake_fold s txs2 acc.
Proof.
  intros P Hnd. rewrite !stake_fold_ins_all. apply ins_all_perm.
  - unfold stake_bindings. apply Permutation_flat_map. exact P.
  - apply stake_bindings_consistent. exact Hnd.
Qed.

Lemma fold_max_perm (l1 l2 : list (res N)) : Permutation l1 l2 -> forall a,
  fold_left (fun a r => match r with Ok v => N.max a v | _ => a end) l1 a
  = fold_left (fun a r => match r with Ok v => N.max a v | _ => a end) l2 a.
Proof.
  induction 1 as [|x l l' _ IH|x y l|l l' l'' _ IH1 _ IH2]; intros a; cbn [fold_left].
  - reflexivity.
  - apply IH.
  - f_equal. destruct x, y; lia.
  - rewrite IH1. apply IH2.
Qed.

Lemma filter_perm {A} (f : A -> bool) l1 l2 : Permutation l1 l2 -> Permutation (List.filter f l1) (List.filter f l2).
Proof.
  induction 1 as [|x l l' _ IH|x y l|l l' l'' _ IH1 _ IH2]; cbn [List.filter].
  - constructor.
  - destruct (f x); [constructor|]; exact IH.
  - destruct (f x), (f y); try reflexivity. constructor.
  - etransitivity; eauto.
Qed.

Lemma created_consistent txs : NoDup (out_keys txs) -> consistent (created s txs).
Proof.
  intros Hnd k v1 v2 H1 H2.
  apply in_created in H1 as (t1 & io1 & Ht1 & Hio1 & E1 & _ & ->).
  apply in_created in H2 as (t2 & io2 & Ht2 & Hio2 & E2 & _ & ->).
  destruct (out_keys_inj txs t1 io1 t2 io2 Hnd Ht1 Hio1 Ht2 Hio2) as [<- <-]; [congruence|reflexivity].
Qed.

Lemma Accepts_perm txs1 txs2 rel :
  Permutation txs1 txs2 -> HashOK SO s txs1 -> Accepts SO s lh txs1 rel -> Accepts SO s lh txs2 rel.
Proof.
  intros P HK [Hrel Hall]. constructor.
  - apply (load_relevant_perm s _ _ _ P); [|exact Hrel].
    apply created_consistent, (hk_out_nodup SO s _ HK), (load_relevant_short s _ _ Hrel).
  - intros t Ht. rewrite <- (stake_fold_perm _ _ _ P (hk_nodup _ _ _ HK)).
    apply Hall. exact (Permutation_in _ (Permutation_sym P) Ht).
Qed.

Lemma batch_post_perm txs1 txs2 rel fp tp :
  Permutation txs1 txs2 -> HashOK SO s txs1 -> short_outputs txs1 ->
  batch_post rel txs1 fp tp = batch_post rel txs2 fp tp.
Proof.
  intros P HK Hs. unfold batch_post, batch_coins, speed_after.
  rewrite (del_all_perm _ _ _ (all_inputs_perm _ _ P)).
  rewrite (ins_all_perm _ _ (s_coins s) (Permutation_flat_map (tx_inserts SO rel) P))
    by (apply nodup_consistent, (batch_inserts_nodup SO s); assumption).
  rewrite (ins_all_perm (tx_bindings txs1) _ (s_txs s) (Permutation_map _ P))
    by (apply nodup_consistent; unfold tx_bindings; rewrite map_map; apply (hk_nodup _ _ _ HK)).
  rewrite (fold_max_perm _ _ (Permutation_map _ (filter_perm is_mint _ _ P))).
  rewrite (stake_fold_perm _ _ ∅ P (hk_nodup _ _ _ HK)). reflexivity.
Qed.

(* C03: neither acceptance nor the resulting state depends on the order of presentation: every condition of
   [apply_tx_batch_char] is a statement about members or has a permutation lemma *)
Theorem batch_order_independent txs1 txs2 s1 :
  Permutation txs1 txs2 ->
  HashOK SO s txs1 ->
  (tip_906 s = true -> CountsOk (s_coins s, s_counts s)) ->
  s_fee_pool s <= MAX128 -> s_tips s <= MAX128 ->
  apply_tx_batch SO s lh txs1 = Ok s1 -> apply_tx_batch SO s lh txs2 = Ok s1.
Proof.
  intros P HK Hcnt Hfp Htips H1.
  apply (apply_tx_batch_char txs1 s1 HK Hcnt) in H1 as (rel & fp & tp & A & Hfa & Hf & ->).
  apply (apply_tx_batch_char txs2 _ (HashOK_perm SO s _ _ P HK) Hcnt). exists rel, fp, tp.
  split; [exact (Accepts_perm _ _ _ P HK A)|]. split; [|split].
  - intros t Ht. apply Hfa. exact (Permutation_in _ (Permutation_sym P) Ht).
  - rewrite <- (fee_fold_perm _ _ _ _ _ P Hfp Htips). exact Hf.
  - apply batch_post_perm; [exact P|exact HK|exact (load_relevant_short s _ _ (acc_rel A))].
Qed.

(* C20 for a whole batch under the hash-oracle assumptions *)
Theorem accepted_batch_counts_hash txs s' :
  apply_tx_batch SO s lh txs = Ok s' -> tip_906 s = true ->
  CountsOk (s_coins s, s_counts s) -> HashOK SO s txs ->
  CountsOk (s_coins s', s_counts s').
Proof.
  intros H Htip Hok HK.
  apply (apply_tx_batch_char txs s' HK (fun _ => Hok)) in H as (rel & fp & tp & _ & _ & _ & ->).
  cbn [batch_post s_coins s_counts]. rewrite Htip. apply tip906_transition_counts_ok.
Qed.
End PermAccept.
