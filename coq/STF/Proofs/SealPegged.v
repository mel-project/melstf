(* C01 at seal for MEL and SYM, the two denominations the protocol mints by design: a whole seal adds to the amount in
   existence (coins + pool reserves, plus for MEL the fee pool and the tips) at most the bootstrap of the built-in pools,
   the peg nudge (2^128 / throttler) and, for SYM after TIP-909, the scheduled subsidy.  MEL is minted neither by the
   subsidy (what the MEL/SYM pool pays out goes to the fee pool) nor by the proposer reward (paid out of fee pool and tips). *)
From MelVerif Require Import STF.Proofs.Tactics STF.Proofs.Supply STF.Proofs.Pool STF.Proofs.SealCoins
  STF.Proofs.SealSupply STF.Proofs.SealLift.
From Coq Require Import ZifyN ZifyNat ZifyBool.
Open Scope N_scope.

Section Pegged.
Variable K : list (denom * denom).
Hypothesis Kcodes : NoDup (map poolkey_code K).
Variable SO : stf_oracle.
Hypothesis K_builtins : In MS K /\ In ME K /\ In ES K.

Definition pegged (d : denom) : Prop := d = Mel \/ d = Sym.

Definition held (d : denom) (s : wstate) : N :=
  coin_supply d (s_coins s) + psum K d s + (if denom_eqb d Mel then s_fee_pool s + s_tips s else 0).

Definition peg_cap (s : wstate) : N := MAX128 / (if tip_902 s then 200 else 1000).
Definition subsidy (s : wstate) : N :=
  if tip_909 s then N.shiftr (2 ^ 20) ((s_height s - TIP_909_HEIGHT) / 1000000) else 0.

Lemma liq_of_pegged d s : pegged d -> liq_of K SO d s = 0.
Proof. intros Hd. unfold liq_of. apply nsum_map_zero. intros k _. unfold LDk. destruct Hd as [-> | ->]; reflexivity. Qed.

Lemma pegging_held d s s' : pegged d -> process_pegging s = Ok s' -> held d s' <= held d s + peg_cap s.
Proof. intros Hd H. pose proof (pegging_mass K Kcodes K_builtins d s s' H) as B. destruct Hd as [-> | ->]; exact B. Qed.

Lemma tip909_held d s s' : pegged d -> apply_tip_909 s = Ok s' ->
  held d s' <= held d s + (if denom_eqb d Mel then 0 else N.shiftr (2 ^ 20) ((s_height s - TIP_909_HEIGHT) / 1000000)).
Proof. intros Hd H. pose proof (tip909_mass K Kcodes K_builtins d s s' H) as B. destruct Hd as [-> | ->]; exact B. Qed.

Lemma reward_held d s act s' : pegged d -> collect_proposer_fee SO s act = Ok s' -> held d s' <= held d s.
Proof. intros _ H. exact (proj1 (reward_step K SO d s act s' H)). Qed.

Theorem seal_pegged s a s' d :
  pegged d ->
  seal SO s a = Ok s' ->
  legacy_net s && (s_height s <? 978392) = false ->
  (forall t k, In t (sorted_txs s) -> tx_pool t = Some k -> In k K /\ LDk SO k <> fst k /\ LDk SO k <> snd k) ->
  NoDup (key_pairs (sorted_txs s)) ->
  (forall t c, In t (sorted_txs s) -> s_coins s !! key0 t = Some c -> as_declared t c (out0 t)) ->
  (forall t c, In t (sorted_txs s) -> s_coins s !! key1 t = Some c -> as_declared t c (out1 t)) ->
  nsum (map (fun t => cd_value (out0 t)) (sorted_txs s)) < U128 ->
  nsum (map (fun t => cd_value (out1 t)) (sorted_txs s)) < U128 ->
  (forall s2 s3, process_swaps (create_builtins s) = Ok s2 -> process_deposits SO s2 = Ok s3 ->
     (forall k p'' m, In k K ->
        pool_deposit (pool_at s2 k)
          (nsum (map (fun t => cd_value (out0 t)) (txs_for_pool (List.filter (is_deposit_request s2) (sorted_txs s2)) k)))
          (nsum (map (fun t => cd_value (out1 t)) (txs_for_pool (List.filter (is_deposit_request s2) (sorted_txs s2)) k))) = Ok (p'', m) ->
        p_liqs (pool_at s2 k) + m < U128) /\
     (forall k p, In k K -> get_pool s3 k = Some p -> p_lefts p < U128 /\ p_rights p < U128)) ->
  held d s' <= held d s + bootstrap K d s + peg_cap s + (if denom_eqb d Mel then 0 else subsidy s).
Proof.
  intros Hd H Hleg Hcover Hkeys Hd0 Hd1 Hs0 Hs1 Hclamp.
  pose proof (seal_settles K Kcodes SO K_builtins s a s' d H (ready_all K SO s Hleg Hcover Hkeys Hd0 Hd1 Hs0 Hs1) Hclamp) as S.
  rewrite !(liq_of_pegged d _ Hd) in S. unfold mass, issued, peg_room, sym_subsidy in S. unfold held, peg_cap, subsidy.
  destruct Hd as [-> | ->]; cbn [denom_eqb] in S |- *; lia.
Qed.

(* the [_def] lemmas spell a definition out for Properties/, where the statements are read *)
Lemma pegged_def d : pegged d <-> d = Mel \/ d = Sym.
Proof. reflexivity. Qed.
Lemma held_def d s :
  held d s = coin_supply d (s_coins s) + psum K d s + (if denom_eqb d Mel then s_fee_pool s + s_tips s else 0).
Proof. reflexivity. Qed.
Lemma peg_cap_def s : peg_cap s = MAX128 / (if tip_902 s then 200 else 1000).
Proof. reflexivity. Qed.
Lemma subsidy_def s : subsidy s = if tip_909 s then N.shiftr (2 ^ 20) ((s_height s - TIP_909_HEIGHT) / 1000000) else 0.
Proof. reflexivity. Qed.
End Pegged.
