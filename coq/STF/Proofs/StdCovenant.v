(* C04, standard signature covenants: a valid Ed25519 signature over the signature-free transaction hash by the
   named key, in the expected signature slot, is necessary and sufficient. *)
From MelVerif Require Import STF.Proofs.Tactics VM.LoopProofs Base.ArithProofs.
Open Scope N_scope.

(* Covenant::std_ed25519_pk_new / std_ed25519_pk_legacy (lib/melvm/src/lib.rs) *)
Definition std_ed25519_new (pk : list N) : list op :=
  [LoadImm HADDR_SPENDER_INDEX; PushI 6; LoadImm HADDR_SPENDER_TX; VRef; VRef; PushB pk; LoadImm 1; SigEOk 32].
Definition std_ed25519_legacy (pk : list N) : list op :=
  [PushI 0; PushI 6; LoadImm HADDR_SPENDER_TX; VRef; VRef; PushB pk; LoadImm 1; SigEOk 32].

(* with the signature slot on the stack: fetch that signature from the spending transaction and check it against
   [pk] and the transaction hash *)
Definition std_tail (pk : list N) : list op :=
  [PushI 6; LoadImm HADDR_SPENDER_TX; VRef; VRef; PushB pk; LoadImm 1; SigEOk 32].

Lemma run_nat_S O prog k s n :
  run_nat O prog (S k) s n = match step1 O prog s n with Cont s' n' => run_nat O prog k s' n' | r => r end.
Proof. reflexivity. Qed.

Lemma run_nat_step O prog k s s' n :
  step O prog s = Some s' -> (pc s <? len prog) = true -> run_nat O prog (S k) s n = run_nat O prog k s' (n + 1).
Proof. intros E Hpc. rewrite run_nat_S. unfold step1. rewrite Hpc, E. reflexivity. Qed.

Lemma run_nat_fail O prog k s n :
  step O prog s = None -> (pc s <? len prog) = true -> run_nat O prog (S k) s n = Fin None (n + 1).
Proof. intros E Hpc. rewrite run_nat_S. unfold step1. rewrite Hpc, E. reflexivity. Qed.

Lemma run_nat_end O prog k s n :
  (pc s <? len prog) = false ->
  run_nat O prog (S k) s n = Fin (match stack s with v :: _ => Some v | [] => None end) n.
Proof. intros Hpc. rewrite run_nat_S. unfold step1. rewrite Hpc. reflexivity. Qed.

Lemma nth_error_map_bytes (l : list (list N)) i :
  nth_error (map VBytes l) i = match nth_error l i with Some b => Some (VBytes b) | None => None end.
Proof. revert i. induction l as [|x l IH]; intros [|i]; cbn; auto. Qed.

Section Std.
Variable O : oracle.
Variables (pk : list N) (t : tx) (inp : N * N) (c : cdh) (lh : header).
Hypothesis Hpk : length pk = 32%nat.

Definition sig_check (slot : N) : bool :=
  match nth_error (t_sigs t) (N.to_nat slot) with
  | Some sg => if 64 <? len sg then false else o_sig O pk (be_bytes 32 (t_hash t)) sg
  | None => false
  end.

(* [k] is the fuel left over: the eight instructions and the return take nine units of run_fuel, which is
   168 for the new covenant and 165 for the legacy one *)
Lemma std_tail_accepts op0 slot k idx :
  let P := op0 :: std_tail pk in
  let st := fun p stk => {| pc := p; stack := stk; heap := env_heap t inp c idx lh; loops := [] |} in
  slot <= 65535 -> Pos.to_nat (run_fuel P) = (9 + k)%nat ->
  step O P (st 0 []) = Some (st 1 [VInt slot]) ->
  covenant_accepts O P (env_heap t inp c idx lh) = sig_check slot.
Proof.
  intros P st Hslot F E1. unfold covenant_accepts, run. rewrite run_pos_nat, F. cbn [Nat.add].
  change (init_state (env_heap t inp c idx lh)) with (st 0 []).
  assert (E2: step O P (st 1 [VInt slot]) = Some (st 2 [VInt 6; VInt slot])) by reflexivity.
  assert (E3: step O P (st 2 [VInt 6; VInt slot]) = Some (st 3 [tx_value t; VInt 6; VInt slot])) by reflexivity.
  assert (E4: step O P (st 3 [tx_value t; VInt 6; VInt slot]) = Some (st 4 [VVec (map VBytes (t_sigs t)); VInt slot])) by reflexivity.
  rewrite (run_nat_step _ _ _ _ _ _ E1 eq_refl), (run_nat_step _ _ _ _ _ _ E2 eq_refl),
    (run_nat_step _ _ _ _ _ _ E3 eq_refl), (run_nat_step _ _ _ _ _ _ E4 eq_refl).
  unfold sig_check.
  assert (E5: step O P (st 4 [VVec (map VBytes (t_sigs t)); VInt slot]) =
              match nth_error (t_sigs t) (N.to_nat slot) with
              | Some sg => Some (st 5 [VBytes sg])
              | None => None end).
  { unfold step. change (nth_error P (N.to_nat (pc (st 4 [VVec (map VBytes (t_sigs t)); VInt slot])))) with (Some VRef).
    unfold exec_op. cbn [stack st binop into_u16 into_vec].
    destruct (N.ltb_spec 65535 slot); [lia|]. rewrite nth_error_map_bytes.
    destruct (nth_error (t_sigs t) (N.to_nat slot)); reflexivity. }
  destruct (nth_error (t_sigs t) (N.to_nat slot)) as [sg|]; [|rewrite (run_nat_fail _ _ _ _ _ E5 eq_refl); reflexivity].
  assert (E6: step O P (st 5 [VBytes sg]) = Some (st 6 [VBytes pk; VBytes sg])) by reflexivity.
  assert (E7: step O P (st 6 [VBytes pk; VBytes sg]) = Some (st 7 [vhash (t_hash t); VBytes pk; VBytes sg])) by reflexivity.
  assert (E8: step O P (st 7 [vhash (t_hash t); VBytes pk; VBytes sg]) =
              Some (st 8 [of_bool (if 64 <? len sg then false else o_sig O pk (be_bytes 32 (t_hash t)) sg)])).
  { unfold step. change (nth_error P (N.to_nat (pc (st 7 [vhash (t_hash t); VBytes pk; VBytes sg])))) with (Some (SigEOk 32)).
    unfold exec_op. cbn [stack st triop sigeok vhash].
    (* the key and the message have the 32 bytes SigEOk 32 asks for *)
    unfold len. rewrite Hpk, be_bytes_length. cbn [N.of_nat Pos.of_succ_nat Pos.succ N.ltb N.eqb N.compare Pos.compare Pos.compare_cont Pos.eqb negb].
    destruct (64 <? N.of_nat (length sg)); reflexivity. }
  rewrite (run_nat_step _ _ _ _ _ _ E5 eq_refl), (run_nat_step _ _ _ _ _ _ E6 eq_refl),
    (run_nat_step _ _ _ _ _ _ E7 eq_refl), (run_nat_step _ _ _ _ _ _ E8 eq_refl), run_nat_end by reflexivity.
  cbn [stack st]. destruct (64 <? len sg); [reflexivity|]. destruct (o_sig O pk (be_bytes 32 (t_hash t)) sg); reflexivity.
Qed.

Theorem std_new_accepts_iff idx :
  idx < 256 ->
  covenant_accepts O (std_ed25519_new pk) (env_heap t inp c idx lh) = sig_check idx.
Proof.
  intros Hidx.
  apply (std_tail_accepts (LoadImm HADDR_SPENDER_INDEX) idx 159 idx); [lia|vm_compute; reflexivity|reflexivity].
Qed.

Theorem std_legacy_accepts_iff idx :
  covenant_accepts O (std_ed25519_legacy pk) (env_heap t inp c idx lh) = sig_check 0.
Proof. apply (std_tail_accepts (PushI 0) 0 156 idx); [lia|vm_compute; reflexivity|reflexivity]. Qed.
End Std.
