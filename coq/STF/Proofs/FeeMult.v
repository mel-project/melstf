(* C17: the fee multiplier moves only by the bounded, specified step per block. *)
From MelVerif Require Import STF.Model.
From Coq Require Import ZifyN ZifyNat ZifyBool.
Open Scope N_scope.

Definition floor901 (after901 : bool) : Z := if after901 then 2%Z else 0%Z.
(* trunc(max(m/128, floor) * d / 128) as an integer *)
Definition spec_step (after901 : bool) (m : N) (d : Z) : Z :=
  Z.quot (Z.max (Z.of_N m / 128) (floor901 after901) * d) 128.

Lemma base_spec (after901 : bool) m :
  Z.of_N (if after901 then N.max (m / 128) 2 else m / 128) = Z.max (Z.of_N m / 128) (floor901 after901).
Proof. unfold floor901. destruct after901; lia. Qed.

(* 2^128 enters only as a bound above m: the three theorems hold for any such bound *)
Theorem move_fee_multiplier_spec after901 m d :
  (-128 <= d <= 127)%Z -> m < U128 ->
  Z.of_N (move_fee_multiplier after901 m d)
  = Z.min (Z.of_N MAX128) (Z.max 0 (Z.of_N m + spec_step after901 m d)).
Proof.
  unfold move_fee_multiplier, spec_step, sat_add128, MAX128. cbn zeta. rewrite <- base_spec.
  generalize (if after901 then N.max (m / 128) 2 else m / 128) as mm. generalize U128 as M. intros M mm Hd Hm.
  destruct (Z.leb_spec 0 d).
  - rewrite Z.quot_div_nonneg by lia. lia.
  - replace (Z.of_N mm * d)%Z with (- (Z.of_N mm * - d))%Z by lia.
    rewrite Z.quot_opp_l, Z.quot_div_nonneg by lia. lia.
Qed.

Lemma mag_le mm a : a <= 128 -> mm * a / 128 <= mm.
Proof. intros H. apply N.div_le_upper_bound; [discriminate|]. nia. Qed.

(* the step is at most 1/128 of the value, or 2 units *)
Theorem move_fee_multiplier_bounded after901 m d :
  (-128 <= d <= 127)%Z -> m < U128 ->
  (Z.abs (Z.of_N (move_fee_multiplier after901 m d) - Z.of_N m) <= Z.max (Z.of_N m / 128) 2)%Z.
Proof.
  unfold move_fee_multiplier, sat_add128, MAX128. cbn zeta.
  assert (Hmm: (if after901 then N.max (m / 128) 2 else m / 128) <= N.max (m / 128) 2) by (destruct after901; lia).
  revert Hmm. generalize (if after901 then N.max (m / 128) 2 else m / 128) as mm. generalize U128 as M. intros M mm Hmm Hd Hm.
  pose proof (mag_le mm (Z.abs_N d) ltac:(lia)).
  destruct (Z.leb_spec 0 d); lia.
Qed.

(* it never wraps: the result is a u128, and it moves in the direction of delta *)
Theorem move_fee_multiplier_no_wrap after901 m d :
  (-128 <= d <= 127)%Z -> m < U128 ->
  move_fee_multiplier after901 m d < U128 /\
  ((0 <= d)%Z -> m <= move_fee_multiplier after901 m d) /\
  ((d < 0)%Z -> move_fee_multiplier after901 m d <= m).
Proof.
  unfold move_fee_multiplier, sat_add128, MAX128. cbn zeta.
  generalize ((if after901 then N.max (m / 128) 2 else m / 128) * Z.abs_N d / 128) as mag. generalize U128 as M.
  intros M mag Hd Hm. destruct (Z.leb_spec 0 d); lia.
Qed.
