(* A concrete state, oracle and batch: non-vacuity witnesses for the whole-batch theorems (their hypotheses -
   the hash-oracle assumptions, acceptance, the counts invariant - hold together on a non-trivial example). *)
From MelVerif Require Import STF.Proofs.Tactics STF.Proofs.Counts STF.Proofs.HashFacts STF.Proofs.SeqApply.
Open Scope N_scope.

Definition w_oracle : stf_oracle :=
  {| so_vm := {| o_hash := fun b => b; o_sig := fun _ _ _ => false |};
     so_reward_id := fun h => 7000000 + h;
     so_faucet_marker := fun h => 9000000 + h;
     so_liq_denom := fun c => 8000000 + c;
     so_header_hash := fun h => h_height h + 1;
     so_melpow := fun _ _ _ _ => VInvalid;
     so_ed25519 := fun _ _ _ => false |}.

(* covenant "PushI 1": accepts every spend *)
Definition w_true_bytes : list N := default [] (encode_all [PushI 1]).
Definition w_true_hash : N := 4242.

Definition w_state : wstate :=
  {| s_network := 2; s_height := 5; s_history := ∅; s_coins := ∅; s_counts := ∅; s_txs := ∅;
     s_fee_pool := 1000; s_fee_mult := 100; s_tips := 0; s_dosc_speed := 1; s_pools := ∅; s_stakes := ∅ |}.

Definition w_header : header :=
  {| h_network := 2; h_previous := 0; h_height := 4; h_history := 0; h_coins := 0; h_txs := 0; h_fee_pool := 1000;
     h_fee_mult := 100; h_dosc_speed := 1; h_pools := 0; h_stakes := 0 |}.

Definition w_out (v : N) (d : denom) : coindata := {| cd_covhash := w_true_hash; cd_value := v; cd_denom := d; cd_extra := [] |}.

Definition w_mk (k : txkind) (ins : list (N * N)) (outs : list coindata) (fee h : N) : tx :=
  {| t_kind := k; t_inputs := ins; t_outputs := outs; t_fee := fee; t_covenants := [w_true_bytes]; t_data := [];
     t_sigs := []; t_hash := h; t_fullhash := h + 1000; t_rawlen := 100; t_covhashes := [w_true_hash];
     t_stakedoc := None; t_poolkey := None; t_dosc := DDNone |}.

(* two faucets and a transfer that spends the first faucet's MEL inside the same batch, creating its own token *)
Definition w_f1 : tx := w_mk KFaucet [] [w_out 5000 Mel; w_out 70 Sym] 1000 11.
Definition w_f2 : tx := w_mk KFaucet [] [w_out 300 Erg] 1000 12.
Definition w_t3 : tx := w_mk KNormal [(11, 0)] [w_out 3000 Mel; w_out 9 NewCustom] 2000 13.
Definition w_batch : list tx := [w_f1; w_f2; w_t3].

(* Witnesses are closed by evaluation, always on the goal side: a reduction inside a hypothesis is checked again
   without the VM.  [ok_or] names the value of an outcome, [accepted] and [passes] turn "e = Ok a" and
   "e = Ok a -> b a = true" into closed booleans.  A goal that still mentions a variable under arithmetic with a
   large constant must not be evaluated (the normal form of [c + x] branches on every bit of c). *)
Definition ok_or {A} (d : A) (e : res A) : A := match e with Ok a => a | _ => d end.
Definition passes {A} (e : res A) (b : A -> bool) : bool := match e with Ok a => b a | _ => true end.
Definition accepted {A} (e : res A) : bool := match e with Ok _ => true | _ => false end.
Lemma accepted_ex {A} (e : res A) : accepted e = true -> exists a, e = Ok a.
Proof. destruct e; [eauto|discriminate..]. Qed.
Lemma ok_inj {A} (a b : A) : @Ok err A a = Ok b -> a = b.
Proof. intros [= ->]. reflexivity. Qed.
Lemma passes_ok {A} (e : res A) b a : passes e b = true -> e = Ok a -> b a = true.
Proof. intros H ->. exact H. Qed.

Lemma w_accepted : exists s', apply_tx_batch w_oracle w_state w_header w_batch = Ok s'.
Proof. apply accepted_ex. vm_compute. reflexivity. Qed.

Lemma w_hash_ok : HashOK w_oracle w_state w_batch.
Proof.
  constructor.
  - cbn. repeat constructor; cbn; intuition discriminate.
  - intros t i _ _. apply lookup_empty.
  - intros t t' Ht Ht'. cbn in Ht, Ht'. intuition (subst; cbn; discriminate).
  - intros t t' i Ht Ht' Hi. cbn in Ht, Ht'.
    destruct Ht' as [<-|[<-|[<-|[]]]]; cbn in Hi; try contradiction.
    destruct Hi as [<-|[]]. intuition (subst; vm_compute; discriminate).
  - intros t t' Ht Ht'. cbn in Ht, Ht'. intuition (subst; cbn in *; try reflexivity; try lia).
Qed.

Lemma w_counts_ok : tip_906 w_state = true -> CountsOk (s_coins w_state, s_counts w_state).
Proof. intros _. intros h. cbn [fst snd w_state s_coins s_counts]. rewrite count_of_empty. cbn. apply lookup_empty. Qed.

Lemma w_perm : Permutation w_batch [w_t3; w_f2; w_f1].
Proof.
  unfold w_batch. apply (perm_trans (l' := [w_f2; w_f1; w_t3])); [apply perm_swap|].
  apply (perm_trans (l' := [w_f2; w_t3; w_f1])); [apply perm_skip, perm_swap|].
  apply (perm_trans (l' := [w_t3; w_f2; w_f1])); [apply perm_swap|]. reflexivity.
Qed.

Lemma w_dep_ordered : dep_ordered w_batch.
Proof.
  cbn [dep_ordered w_batch]. split; [intros i []|]. split; [intros i []|]. split; [|exact I].
  intros i Hi. cbn in Hi. destruct Hi as [<-|[]]. vm_compute. intuition discriminate.
Qed.

Lemma w_indices : forall t i, In t w_batch -> In i (t_inputs t) -> snd i < 256.
Proof. intros t i Ht Hi. cbn in Ht. destruct Ht as [<-|[<-|[<-|[]]]]; cbn in Hi; try contradiction. destruct Hi as [<-|[]]. cbn. lia. Qed.

Lemma w_sequential : exists s', seq_apply w_oracle w_header w_state w_batch = Ok s'.
Proof. apply accepted_ex. vm_compute. reflexivity. Qed.
