(* Non-vacuity of [seal_total]: its hypotheses hold together on the concrete state reached by the batch of
   STF/Proofs/Witness.v (two faucets and a transfer, no pool yet: the seal bootstraps the built-in pools). *)
From MelVerif Require Import STF.Proofs.Tactics STF.Proofs.SealLift STF.Proofs.SealInv STF.Proofs.SealCounts
  STF.Proofs.History STF.Proofs.SealTotal STF.Proofs.Witness STF.Proofs.Witness5.
Open Scope N_scope.

Definition w_s1 : wstate := hstep w_oracle w_state (HBatch w_header w_batch).

Lemma w_s1_good : Good w_s1.
Proof.
  apply hstep_good; [exact w_state_good|]. cbn [step_ok]. split; [exact w_hash_ok|intros t t' _ []].
Qed.

(* the state after the batch and the stages of its seal, each evaluated once; later steps start from these
   normal forms *)
Definition w_s1n : wstate := Eval vm_compute in w_s1.
Definition w_c1 : wstate := Eval vm_compute in create_builtins w_s1n.
Definition w_c2 : wstate := Eval vm_compute in ok_or w_c1 (process_swaps w_c1).
Definition w_c3 : wstate := Eval vm_compute in ok_or w_c2 (process_deposits w_oracle w_c2).
Definition w_pre : wstate := Eval vm_compute in ok_or w_c3 (preseal_melmint w_oracle w_s1n).

Lemma w_s1_eq : w_s1 = w_s1n.
Proof. vm_compute. reflexivity. Qed.

Lemma w_stages :
  create_builtins w_s1n = w_c1 /\ process_swaps w_c1 = Ok w_c2 /\ process_deposits w_oracle w_c2 = Ok w_c3 /\
  preseal_melmint w_oracle w_s1n = Ok w_pre.
Proof. repeat split; vm_compute; reflexivity. Qed.

Lemma w_s1_txs : sorted_txs w_s1 = [w_f1; w_f2; w_t3].
Proof. exact w_after_batch_txs. Qed.

Lemma w_s1_named k : named w_s1 k -> builtin k.
Proof.
  intros [H|(t & Ht & E)]; [exact H|]. rewrite w_s1_txs in Ht.
  exfalso. revert E. destruct Ht as [<-|[<-|[<-|[]]]]; vm_compute; discriminate.
Qed.

Lemma w_seal_total_hypotheses :
  (forall k1 k2, named w_s1 k1 -> named w_s1 k2 -> poolkey_code k1 = poolkey_code k2 -> k1 = k2) /\
  Good w_s1 /\
  (forall k p, builtin k -> get_pool w_s1 k = Some p -> live p) /\
  (forall k, builtin k -> is_Some (get_pool (create_builtins w_s1) k) -> forall s2 s3 p3,
     process_swaps (create_builtins w_s1) = Ok s2 -> process_deposits w_oracle s2 = Ok s3 -> get_pool s3 k = Some p3 ->
     sat_sum (map (fun t => cd_value (out0 t)) (txs_for_pool (List.filter (is_withdraw_request w_oracle s3) (sorted_txs s3)) k)) < p_liqs p3) /\
  (s_height w_s1 - TIP_909_HEIGHT) / 1000000 < 128 /\
  (forall s1 sm, preseal_melmint w_oracle w_s1 = Ok s1 -> get_pool s1 MS = Some sm -> s_fee_pool w_s1 + p_lefts sm + s_tips w_s1 < U128).
Proof.
  destruct w_stages as (E1 & E2 & E3 & E5).
  split; [|split; [exact w_s1_good|]]; [|rewrite w_s1_eq; split; [|split; [|split]]].
  - intros k1 k2 H1 H2. apply w_s1_named in H1, H2.
    destruct H1 as [-> | [-> | ->]], H2 as [-> | [-> | ->]]; try reflexivity; vm_compute; discriminate.
  - intros k p Hb E. exfalso. revert E. destruct Hb as [-> | [-> | ->]]; vm_compute; discriminate.
  - intros k Hb _ s2 s3 p3. rewrite E1, E2. intros <-%ok_inj. rewrite E3. intros <-%ok_inj.
    intros Ep. assert (Some p3 = Some (pool_at w_c3 k)) as [= ->]; [rewrite <- Ep|];
      destruct Hb as [-> | [-> | ->]]; vm_compute; reflexivity.
  - vm_compute. reflexivity.
  - intros s1 sm. rewrite E5. intros <-%ok_inj Ep.
    assert (Some sm = Some (pool_at w_pre MS)) as [= ->]; [rewrite <- Ep|]; vm_compute; reflexivity.
Qed.

Lemma w_seal_total : forall a, exists s', seal w_oracle w_s1 a = Ok s'.
Proof.
  destruct w_seal_total_hypotheses as (H1 & H2 & H3 & H4 & H5 & H6). exact (seal_total w_oracle w_s1 H1 H2 H3 H4 H5 H6).
Qed.
