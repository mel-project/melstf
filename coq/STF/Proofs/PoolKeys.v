(* extract_pool_keys_sorted yields every pool named by a request exactly once: the list the settlement loops
   iterate has no duplicates. *)
From MelVerif Require Import STF.Proofs.Tactics.
From Coq Require Import Sorting.Sorted ZifyN ZifyNat ZifyBool.
Open Scope N_scope.

(* the two components of a rank under names of their own: the order on keys becomes a boolean formula over
   comparisons of N, which lia decides *)
Definition rk1 (d : denom) : N := fst (denom_rank d).
Definition rk2 (d : denom) : N := snd (denom_rank d).

Lemma denom_ltb_rk a b : denom_ltb a b = (rk1 a <? rk1 b) || ((rk1 a =? rk1 b) && (rk2 a <? rk2 b)).
Proof. unfold denom_ltb, rk1, rk2. destruct (denom_rank a), (denom_rank b). reflexivity. Qed.

Lemma denom_eqb_rk a b : denom_eqb a b = (rk1 a =? rk1 b) && (rk2 a =? rk2 b).
Proof. destruct a, b; cbn; try reflexivity. Qed.

Lemma poolkey_ltb_irrefl a : poolkey_ltb a a = false.
Proof. unfold poolkey_ltb. rewrite !denom_ltb_rk, denom_eqb_rk. lia. Qed.

Lemma poolkey_ltb_trans a b c : poolkey_ltb a b = true -> poolkey_ltb b c = true -> poolkey_ltb a c = true.
Proof. unfold poolkey_ltb. rewrite !denom_ltb_rk, !denom_eqb_rk. lia. Qed.

Lemma poolkey_total a b : poolkey_eqb a b = false -> poolkey_ltb a b = false -> poolkey_ltb b a = true.
Proof. unfold poolkey_ltb, poolkey_eqb. rewrite !denom_ltb_rk, !denom_eqb_rk. lia. Qed.

Lemma poolkey_eqb_true a b : poolkey_eqb a b = true -> a = b.
Proof.
  unfold poolkey_eqb. rewrite andb_true_iff, !denom_eqb_eq. destruct a, b; cbn. intros [-> ->]. reflexivity.
Qed.

Definition klt (a b : denom * denom) : Prop := poolkey_ltb a b = true.

Lemma insert_sorted_in k : forall l x, In x (insert_sorted k l) -> x = k \/ In x l.
Proof.
  induction l as [|y l IH]; intros x H; cbn [insert_sorted] in H.
  - destruct H as [<-|[]]. left. reflexivity.
  - destruct (poolkey_eqb k y); [right; exact H|]. destruct (poolkey_ltb k y).
    + destruct H as [<-|H]; [left; reflexivity|right; exact H].
    + destruct H as [<-|H]; [right; left; reflexivity|]. destruct (IH x H); [left; assumption|right; right; assumption].
Qed.

Lemma insert_sorted_has k : forall l, In k (insert_sorted k l).
Proof.
  induction l as [|y l IH]; cbn [insert_sorted]; [left; reflexivity|].
  destruct (poolkey_eqb k y) eqn:E; [apply poolkey_eqb_true in E; subst; left; reflexivity|].
  destruct (poolkey_ltb k y); [left; reflexivity|right; exact IH].
Qed.

Lemma insert_sorted_keeps k : forall l x, In x l -> In x (insert_sorted k l).
Proof.
  induction l as [|y l IH]; intros x H; [contradiction|]. cbn [insert_sorted].
  destruct (poolkey_eqb k y); [exact H|]. destruct (poolkey_ltb k y); [right; exact H|].
  destruct H as [<-|H]; [left; reflexivity|right; apply IH; exact H].
Qed.

Lemma insert_sorted_sorted k : forall l, StronglySorted klt l -> StronglySorted klt (insert_sorted k l).
Proof.
  induction l as [|y l IH]; intros H; cbn [insert_sorted]; [repeat constructor|].
  inversion H as [|? ? Hs Hf]; subst.
  destruct (poolkey_eqb k y) eqn:E; [exact H|]. destruct (poolkey_ltb k y) eqn:L.
  - constructor; [exact H|]. constructor; [exact L|].
    rewrite Forall_forall in Hf |- *. intros x Hx. eapply poolkey_ltb_trans; [exact L|apply Hf; exact Hx].
  - constructor; [apply IH; exact Hs|].
    rewrite Forall_forall in Hf |- *. intros x Hx. apply insert_sorted_in in Hx as [->|Hx]; [|apply Hf; exact Hx].
    apply poolkey_total; assumption.
Qed.

Lemma sorted_nodup : forall l, StronglySorted klt l -> NoDup l.
Proof.
  induction l as [|x l IH]; intros H; [constructor|]. inversion H as [|? ? Hs Hf]; subst.
  constructor; [|apply IH; exact Hs]. intros Hin. rewrite Forall_forall in Hf. specialize (Hf x Hin).
  unfold klt in Hf. rewrite poolkey_ltb_irrefl in Hf. discriminate.
Qed.

Lemma pool_keys_sorted_sorted txs : StronglySorted klt (pool_keys_sorted txs).
Proof.
  unfold pool_keys_sorted. induction txs as [|t l IH]; cbn [fold_right]; [constructor|].
  destruct (tx_pool t); [apply insert_sorted_sorted; exact IH|exact IH].
Qed.

Theorem pool_keys_sorted_nodup txs : NoDup (pool_keys_sorted txs).
Proof. apply sorted_nodup, pool_keys_sorted_sorted. Qed.

Theorem pool_keys_sorted_in txs k : In k (pool_keys_sorted txs) <-> exists t, In t txs /\ tx_pool t = Some k.
Proof.
  unfold pool_keys_sorted. induction txs as [|t l IH]; cbn [fold_right].
  - split; [intros []|intros (t & [] & _)].
  - destruct (tx_pool t) as [k0|] eqn:E.
    + split.
      * intros H. apply insert_sorted_in in H as [->|H]; [exists t; split; [left; reflexivity|exact E]|].
        apply IH in H as (t' & Ht' & E'). exists t'. split; [right; exact Ht'|exact E'].
      * intros (t' & [<-|Ht'] & E'); [rewrite E in E'; injection E' as <-; apply insert_sorted_has|].
        apply insert_sorted_keeps, IH. eauto.
    + rewrite IH. split; intros (t' & Ht' & E'); [exists t'; split; [right; exact Ht'|exact E']|].
      destruct Ht' as [<-|Ht']; [congruence|eauto].
Qed.
