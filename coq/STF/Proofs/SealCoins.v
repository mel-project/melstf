(* C15: at sealing only genuine pool requests have their outputs transformed; every other coin stays
   exactly as it was. *)
From MelVerif Require Import STF.Proofs.Tactics STF.Proofs.Frame STF.Proofs.SealSteps.
Open Scope N_scope.

Definition key0 (t : tx) : N := coin_key (t_hash t) 0.
Definition key1 (t : tx) : N := coin_key (t_hash t) 1.

Section Seal.
Variable SO : stf_oracle.

Lemma coins_create_builtins s : s_coins (create_builtins s) = s_coins s.
Proof. destruct (create_builtins_set s) as [m ->]. reflexivity. Qed.

Definition is_pool_request (t : tx) : bool :=
  (txkind_eqb (t_kind t) KSwap || txkind_eqb (t_kind t) KLiqDeposit || txkind_eqb (t_kind t) KLiqWithdraw)
  && match tx_pool t with Some _ => true | None => false end.

Lemma swap_request_is_request s t : is_swap_request s t = true -> is_pool_request t = true.
Proof.
  intros (Hk & k & p & c & Hp & _)%swap_request_spec. unfold is_pool_request. rewrite Hk, Hp. reflexivity.
Qed.
Lemma deposit_request_is_request s t : is_deposit_request s t = true -> is_pool_request t = true.
Proof.
  intros (Hk & k & c0 & c1 & Hp & _)%deposit_request_spec. unfold is_pool_request. rewrite Hk, Hp. reflexivity.
Qed.
Lemma withdraw_request_is_request s t : is_withdraw_request SO s t = true -> is_pool_request t = true.
Proof.
  intros (Hk & _ & k & p & c & Hp & _)%withdraw_request_spec. unfold is_pool_request. rewrite Hk, Hp. reflexivity.
Qed.

(* the reward id matters only when there is an action *)
Lemma seal_leaves_other_coins_gen s a s' k :
  seal SO s a = Ok s' ->
  (forall t, In t (sorted_txs s) -> is_pool_request t = true -> k <> key0 t /\ k <> key1 t) ->
  (a <> None -> k <> coin_key (so_reward_id SO (s_height s)) 0) ->
  s_coins s' !! k = s_coins s !! k.
Proof.
  intros (s1 & s2 & Hp & _ & H2 & H)%seal_inv Hu Hrw.
  assert (Hh: s_height s2 = s_height s) by (pose proof (frame_before_action SO _ _ _ Hp H2) as F; unfold frame in F; congruence).
  apply preseal_inv in Hp as (sa & sb & sc & Ha & Hb & Hc & H1).
  pose proof (frame_create_builtins s) as F0.
  apply process_swaps_touches in Ha as [Fa Ca]. apply process_deposits_touches in Hb as [Fb Cb].
  apply process_withdrawals_touches in Hc as [Fc Cc].
  (* the requests of each phase are pool requests of the block, whose transaction set never moves *)
  assert (U: forall (req : tx -> bool) x, frame_fp x = frame_fp s ->
             (forall t, req t = true -> is_pool_request t = true) -> untouched_by (List.filter req (sorted_txs x)) k).
  { intros req x Fx Hreq t [Ht Hr]%filter_In. rewrite (txs_same x s (frame_fp_txs _ _ Fx)) in Ht. apply Hu; auto. }
  assert (E1: s_coins s1 !! k = s_coins s !! k).
  { apply process_pegging_set in H1 as [m ->]. cbn [s_coins set_pools].
    rewrite Cc by (apply U; [congruence|exact (withdraw_request_is_request sb)]).
    rewrite Cb by (apply U; [congruence|exact (deposit_request_is_request sa)]).
    rewrite Ca by (apply U; [exact F0|exact (swap_request_is_request (create_builtins s))]).
    rewrite coins_create_builtins. reflexivity. }
  assert (E2: s_coins s2 = s_coins s1).
  { destruct (tip_909 s1); [apply apply_tip_909_set in H2 as (m & fp & ->)|injection H2 as <-]; reflexivity. }
  destruct a as [act|].
  - unfold collect_proposer_fee in H. inv_bind H as v Hv. injection H as <-.
    rewrite coins_put_coin_eq, lookup_insert_ne; [cbn [s_coins set_fees set_mult]; rewrite E2; exact E1|].
    cbn [s_height set_fees set_mult]. rewrite Hh. intros E. symmetry in E. revert E. apply Hrw. discriminate.
  - subst s'. rewrite E2. exact E1.
Qed.

(* C15: a coin that is not output 0 or 1 of a pool request of this block, and not the proposer reward,
   is exactly the same after sealing *)
Theorem seal_leaves_other_coins s a s' k :
  seal SO s a = Ok s' ->
  (forall t, In t (sorted_txs s) -> is_pool_request t = true -> k <> key0 t /\ k <> key1 t) ->
  k <> coin_key (so_reward_id SO (s_height s)) 0 ->
  s_coins s' !! k = s_coins s !! k.
Proof. intros H Hu Hrw. eapply seal_leaves_other_coins_gen; eauto. Qed.
End Seal.

Lemma canonical_key_spec k data :
  canonical_key k data = true ->
  fst k <> snd k /\ fst k <> NewCustom /\ snd k <> NewCustom /\
  poolkey_new (fst k) (snd k) = k /\ poolkey_bytes k = data.
Proof.
  unfold canonical_key. cbv zeta. rewrite !andb_true_iff, !negb_true_iff, !denom_eqb_eq.
  intros ((((H1 & H2) & H3) & A & B) & H5).
  split; [intros E; apply denom_eqb_eq in E; congruence|].
  split; [destruct (fst k); cbn in H2; congruence|].
  split; [destruct (snd k); cbn in H3; congruence|].
  split.
  - destruct k, (poolkey_new _ _); cbn in *; congruence.
  - revert H5. generalize (poolkey_bytes k) as a. intros a. revert data.
    induction a as [|x a IH]; intros [|y b] E; try discriminate; [reflexivity|].
    apply andb_true_iff in E as [E1 E2]. apply N.eqb_eq in E1. subst. f_equal. apply IH. exact E2.
Qed.

Theorem pool_request_spec t :
  is_pool_request t = true ->
  (t_kind t = KSwap \/ t_kind t = KLiqDeposit \/ t_kind t = KLiqWithdraw) /\
  exists k, t_poolkey t = Some k /\ fst k <> snd k /\ fst k <> NewCustom /\ snd k <> NewCustom /\
            poolkey_new (fst k) (snd k) = k /\ poolkey_bytes k = t_data t.
Proof.
  unfold is_pool_request, tx_pool. rewrite andb_true_iff. intros [Hk Hp]. split.
  - destruct (t_kind t); cbn in Hk; try discriminate; auto.
  - destruct (t_poolkey t) as [k|]; [|discriminate]. destruct (canonical_key k (t_data t)) eqn:E; [|discriminate].
    exists k. split; [reflexivity|]. apply canonical_key_spec. exact E.
Qed.
