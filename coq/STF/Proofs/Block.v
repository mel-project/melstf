(* C06 / C07 / C08: block application, header linkage, restart. *)
From MelVerif Require Import STF.Proofs.Tactics STF.Proofs.Frame STF.Proofs.Stakes.
Open Scope N_scope.

Section Block.
Variable SO : stf_oracle.
Variable rf : wstate -> roots.

Lemma apply_block_inv s hdr blk_header txs a s' :
  apply_block SO rf s hdr blk_header txs a = Ok s' ->
  pool_count_ok (next_unsealed s hdr) = true /\
  exists u, apply_batch SO rf (next_unsealed s hdr) txs = Ok u /\ seal SO u a = Ok s' /\
            header_of SO (rf s') s' = Ok blk_header.
Proof.
  unfold apply_block. destruct (pool_count_ok _); [|discriminate]. cbn [negb].
  intros H. inv_bind H as b1 H1. inv_bind H as b2 H2. inv_bind H as h2 H3.
  destruct (bool_decide (h2 = blk_header)) eqn:E; [|discriminate].
  injection H as <-. apply bool_decide_eq_true in E. subst h2. eauto.
Qed.

(* C06: a block is accepted exactly when its transactions apply to the successor state, the result seals,
   and the recomputed header equals the block's header; the returned state has precisely that header *)
Theorem apply_block_iff s hdr blk_header txs a s' :
  pool_count_ok (next_unsealed s hdr) = true ->
  apply_block SO rf s hdr blk_header txs a = Ok s' <->
  exists u, apply_batch SO rf (next_unsealed s hdr) txs = Ok u /\
            seal SO u a = Ok s' /\
            header_of SO (rf s') s' = Ok blk_header.
Proof.
  intros Hp. split; [intros H; exact (proj2 (apply_block_inv s hdr blk_header txs a s' H))|].
  intros (u & H1 & H2 & H3). unfold apply_block. rewrite Hp, H1. cbn [negb obind]. rewrite H2. cbn [obind]. rewrite H3. cbn [obind].
  rewrite bool_decide_eq_true_2 by reflexivity. reflexivity.
Qed.

Theorem apply_block_header s hdr blk_header txs a s' :
  apply_block SO rf s hdr blk_header txs a = Ok s' -> header_of SO (rf s') s' = Ok blk_header.
Proof. intros H. apply apply_block_inv in H as (_ & u & _ & _ & H3). exact H3. Qed.

Theorem apply_block_wrong_header s hdr blk_header txs a u s2 h2 :
  pool_count_ok (next_unsealed s hdr) = true ->
  apply_batch SO rf (next_unsealed s hdr) txs = Ok u -> seal SO u a = Ok s2 ->
  header_of SO (rf s2) s2 = Ok h2 -> h2 <> blk_header ->
  apply_block SO rf s hdr blk_header txs a = Reject EWrongHeader.
Proof.
  intros Hp H1 H2 H3 Hne. unfold apply_block. rewrite Hp, H1. cbn [negb obind]. rewrite H2. cbn [obind]. rewrite H3. cbn [obind].
  rewrite bool_decide_eq_false_2 by exact Hne. reflexivity.
Qed.

Theorem honest_block_accepted s hdr txs a u s2 h2 :
  pool_count_ok (next_unsealed s hdr) = true ->
  apply_batch SO rf (next_unsealed s hdr) txs = Ok u -> seal SO u a = Ok s2 ->
  header_of SO (rf s2) s2 = Ok h2 ->
  apply_block SO rf s hdr h2 txs a = Ok s2.
Proof. intros Hp H1 H2 H3. apply apply_block_iff; eauto. Qed.

(* the header carries every scalar field of the state and the five roots, so two sealed states that differ in
   fee pool, multiplier, DOSC speed, height, network or a root have different headers *)
Theorem header_of_fields R s h :
  header_of SO R s = Ok h ->
  h_network h = s_network s /\ h_height h = s_height s /\ h_fee_pool h = s_fee_pool s /\
  h_fee_mult h = s_fee_mult s /\ h_dosc_speed h = s_dosc_speed s /\
  h_history h = r_history R /\ h_coins h = r_coins R /\ h_txs h = r_txs R /\
  h_pools h = r_pools R /\ h_stakes h = r_stakes R /\
  (s_height s = 0 -> h_previous h = 0) /\
  (forall p, s_history s !! (s_height s - 1) = Some p -> s_height s <> 0 -> h_previous h = so_header_hash SO p).
Proof.
  unfold header_of. intros H. inv_bind H as prev Hprev. injection H as <-. cbn.
  repeat split; auto.
  - intros E. rewrite E in Hprev. cbn in Hprev. congruence.
  - intros p Hp Hne. apply N.eqb_neq in Hne. rewrite Hne, Hp in Hprev. congruence.
Qed.

Lemma header_of_previous R s h p :
  header_of SO R s = Ok h -> s_history s !! (s_height s - 1) = Some p -> s_height s <> 0 ->
  h_previous h = so_header_hash SO p.
Proof. intros H. apply (header_of_fields R s h H). Qed.

(* C07 linkage: the successor state is one higher, on the same network, and its history holds the parent's
   header at the parent's height and every older entry unchanged *)
Theorem next_unsealed_link s hdr :
  let n := next_unsealed s hdr in
  s_height n = s_height s + 1 /\ s_network n = s_network s /\
  s_history n !! s_height s = Some hdr /\
  (forall k, k <> s_height s -> s_history n !! k = s_history s !! k) /\
  s_txs n = ∅ /\ s_fee_pool n = s_fee_pool s /\ s_fee_mult n = s_fee_mult s /\
  s_dosc_speed n = s_dosc_speed s /\ s_pools n = s_pools s /\ s_coins n = s_coins s /\ s_tips n = s_tips s.
Proof.
  unfold next_unsealed. cbn zeta.
  destruct (tip_906 _ && negb (tip_906 s)); cbn;
    (repeat split; auto; [apply lookup_insert|intros k Hk; apply lookup_insert_ne; congruence]).
Qed.

Lemma next_unsealed_pools s hdr : s_pools (next_unsealed s hdr) = s_pools s.
Proof. apply next_unsealed_link. Qed.
Lemma next_unsealed_coins s hdr : s_coins (next_unsealed s hdr) = s_coins s.
Proof. apply next_unsealed_link. Qed.
Lemma next_unsealed_fee_mult s hdr : s_fee_mult (next_unsealed s hdr) = s_fee_mult s.
Proof. apply next_unsealed_link. Qed.

(* the per-covenant counts are rebuilt from the coins at the one step on which TIP-906 becomes active *)
Lemma next_unsealed_counts s hdr :
  s_counts (next_unsealed s hdr) =
  if tip_906 (next_unsealed s hdr) && negb (tip_906 s) then tip906_transition (s_coins s) (s_counts s) else s_counts s.
Proof.
  unfold next_unsealed. cbn zeta. destruct (tip_906 _ && negb (tip_906 s)) eqn:E; [|rewrite E; reflexivity].
  change (tip_906 (set_coins ?n _ _)) with (tip_906 n). rewrite E. reflexivity.
Qed.

(* C07: the header of the next sealed state points at the parent *)
Theorem child_header_links_to_parent s hdr txs a u s2 h2 :
  apply_batch SO rf (next_unsealed s hdr) txs = Ok u -> seal SO u a = Ok s2 ->
  header_of SO (rf s2) s2 = Ok h2 ->
  h_height h2 = s_height s + 1 /\ h_network h2 = s_network s /\ h_previous h2 = so_header_hash SO hdr.
Proof.
  intros H1 H2 H3. unfold apply_batch in H1. inv_bind H1 as lh Hlh.
  destruct (apply_tx_batch_frame _ _ _ _ _ H1) as (Eh & En & Ehist & _).
  destruct (seal_frame _ _ _ _ H2) as (Sn & Sh & Shist & _).
  destruct (header_of_fields _ _ _ H3) as (F1 & F2 & _).
  destruct (next_unsealed_link s hdr) as (L1 & L2 & L3 & _).
  rewrite F1, F2, Sn, Sh, Eh, En, L1, L2. repeat split; auto.
  apply (header_of_previous _ _ _ _ H3); [|rewrite Sh, Eh, L1; lia].
  rewrite Shist, Ehist, Sh, Eh, L1. replace (s_height s + 1 - 1) with (s_height s) by lia.
  exact L3.
Qed.

Definition txs_keyed (s : wstate) : Prop := forall k t, s_txs s !! k = Some t -> t_hash t = k.

Lemma list_to_map_keyed (m : gmap N tx) :
  (forall k t, m !! k = Some t -> t_hash t = k) ->
  list_to_map (map (fun t => (t_hash t, t)) (map snd (map_to_list m))) = m.
Proof.
  intros Hk. rewrite <- (list_to_map_to_list m) at 2. f_equal.
  rewrite map_map. rewrite <- (map_id (map_to_list m)) at 2.
  apply map_ext_in. intros [k t] Hin. cbn. f_equal.
  apply elem_of_list_In, elem_of_map_to_list in Hin. exact (Hk k t Hin).
Qed.

(* C08: a state rebuilt from its block equals the original whenever no tips are pending;
   [txs_keyed] says the transaction set is keyed by each transaction's own hash (an invariant of the model) *)
Theorem restart_equivalence s R h :
  header_of SO R s = Ok h -> s_tips s = 0 -> txs_keyed s ->
  from_block h (map snd (map_to_list (s_txs s))) (s_history s) (s_coins s) (s_counts s) (s_pools s) (s_stakes s) = s.
Proof.
  intros Hh Ht Hk. destruct (header_of_fields _ _ _ Hh) as (F1 & F2 & F3 & F4 & F5 & _).
  unfold from_block. rewrite F1, F2, F3, F4, F5, (list_to_map_keyed _ Hk).
  destruct s; cbn in *. subst. reflexivity.
Qed.

(* with pending tips (only after sealing without a proposer action) the restored state differs: finding F16 *)
Theorem restart_loses_tips s R h :
  header_of SO R s = Ok h -> s_tips s <> 0 ->
  from_block h (map snd (map_to_list (s_txs s))) (s_history s) (s_coins s) (s_counts s) (s_pools s) (s_stakes s) <> s.
Proof.
  intros Hh Ht E. apply (f_equal s_tips) in E. cbn in E. congruence.
Qed.
End Block.
