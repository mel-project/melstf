(* C14: confirmation needs valid signatures from a > 2/3 stake majority. *)
From MelVerif Require Import STF.Model.
From Coq Require Import ZifyN ZifyNat ZifyBool.
Open Scope N_scope.

Definition present_votes (s : wstate) (proof : list (N * list N)) : N :=
  fold_left (fun acc '(k, _) => acc + votes (s_stakes s) (s_height s / STAKE_EPOCH) k) proof 0.
Definition all_sigs_valid (SO : stf_oracle) (hh : N) (proof : list (N * list N)) : bool :=
  forallb (fun '(k, sg) => so_ed25519 SO k hh sg) proof.

(* the overflow-free threshold test of the implementation is exactly 3 * present > 2 * total *)
Lemma threshold_exact total present :
  (total / 3 * 2 + total mod 3 * 2 / 3 <? present) = (2 * total <? 3 * present).
Proof.
  destruct (N.ltb_spec (2 * total) (3 * present)); destruct (N.ltb_spec (total / 3 * 2 + total mod 3 * 2 / 3) present); try reflexivity; lia.
Qed.

Lemma confirm_unfold SO s hh proof :
  confirm SO s hh proof =
  all_sigs_valid SO hh proof
  && (2 * total_votes (s_stakes s) (s_height s / STAKE_EPOCH) <? 3 * present_votes s proof).
Proof.
  unfold confirm, all_sigs_valid, present_votes. rewrite threshold_exact. reflexivity.
Qed.

Theorem confirm_iff SO s hh proof :
  confirm SO s hh proof = true <->
  (forall k sg, In (k, sg) proof -> so_ed25519 SO k hh sg = true) /\
  2 * total_votes (s_stakes s) (s_height s / STAKE_EPOCH) < 3 * present_votes s proof.
Proof.
  rewrite confirm_unfold, andb_true_iff, N.ltb_lt. unfold all_sigs_valid. rewrite forallb_forall.
  split; intros [H1 H2]; split; try exact H2.
  - intros k sg Hin. exact (H1 (k, sg) Hin).
  - intros [k sg] Hin. exact (H1 k sg Hin).
Qed.

Corollary confirm_needs_two_thirds SO s hh proof :
  confirm SO s hh proof = true ->
  2 * total_votes (s_stakes s) (s_height s / STAKE_EPOCH) <= 3 * present_votes s proof.
Proof. intros H. apply confirm_iff in H as [_ H]. lia. Qed.

Corollary empty_proof_never_confirms SO s hh :
  0 < total_votes (s_stakes s) (s_height s / STAKE_EPOCH) -> confirm SO s hh [] = false.
Proof.
  intros H. destruct (confirm SO s hh []) eqn:E; [|reflexivity].
  apply confirm_iff in E as [_ E]. cbn in E. lia.
Qed.

Corollary full_proof_confirms SO s hh proof :
  0 < total_votes (s_stakes s) (s_height s / STAKE_EPOCH) ->
  (forall k sg, In (k, sg) proof -> so_ed25519 SO k hh sg = true) ->
  present_votes s proof = total_votes (s_stakes s) (s_height s / STAKE_EPOCH) ->
  confirm SO s hh proof = true.
Proof. intros H Hs Hp. apply confirm_iff. split; [exact Hs|lia]. Qed.

Lemma present_fold_keys s (proof : list (N * list N)) a :
  fold_left (fun acc '(k, _) => acc + votes (s_stakes s) (s_height s / STAKE_EPOCH) k) proof a =
  a + fold_right (fun k acc => votes (s_stakes s) (s_height s / STAKE_EPOCH) k + acc) 0 (map fst proof).
Proof.
  revert a. induction proof as [|[k sg] l IH]; intros a; cbn [fold_left fold_right map fst]; [lia|]. rewrite IH. lia.
Qed.

Lemma present_votes_app s p1 p2 : present_votes s (p1 ++ p2) = present_votes s p1 + present_votes s p2.
Proof. unfold present_votes. rewrite fold_left_app, (present_fold_keys s p2 (fold_left _ p1 0)), (present_fold_keys s p2 0). lia. Qed.

Theorem confirm_monotone SO s hh proof k sg :
  confirm SO s hh proof = true -> so_ed25519 SO k hh sg = true ->
  confirm SO s hh (proof ++ [(k, sg)]) = true.
Proof.
  intros H Hk. apply confirm_iff in H as [H1 H2]. apply confirm_iff. split.
  - intros k' sg' Hin. apply in_app_or in Hin as [Hin|[E|[]]]; [eauto|]. injection E as <- <-. exact Hk.
  - rewrite present_votes_app. lia.
Qed.
