(* C01 over whole histories: across any sequence of accepted (or refused) batches and sealed blocks, what exists of a
   denomination (coins, pool reserves, for MEL also the fee pool and the tips) grows by at most the explicit issuances of
   the steps: what the batches' faucets, new-token outputs and mints declare, the bootstrap of the built-in pools, the
   capped peg nudge and (SYM) the scheduled subsidy; liquidity tokens grow only with the liquidity their pool records. *)
From MelVerif Require Import STF.Proofs.Tactics STF.Proofs.BatchSupply STF.Proofs.SealLift STF.Proofs.HashFacts
  STF.Proofs.Block STF.Proofs.History STF.Proofs.PoolHistory STF.Proofs.SealPegged.
From Coq Require Import ZifyN ZifyNat ZifyBool.
Open Scope N_scope.

Section SupplyHistory.
Variable K : list (denom * denom).
Hypothesis Kcodes : NoDup (map poolkey_code K).
Variable SO : stf_oracle.
Hypothesis K_builtins : In MS K /\ In ME K /\ In ES K.

(* what exists of d ([held], SealPegged.v) grew by at most x from s to s', liquidity tokens being allowed to grow with the
   liquidity their pool records *)
Definition grows (d : denom) (x : N) (s s' : wstate) : Prop :=
  held K d s' + liq_of K SO d s <= held K d s + liq_of K SO d s' + x.

Lemma grows_refl d s : grows d 0 s s.
Proof. unfold grows. lia. Qed.
Lemma grows_trans d x y a b c : grows d x a b -> grows d y b c -> grows d (x + y) a c.
Proof. unfold grows. lia. Qed.

Definition is_pegged (d : denom) : bool := match d with Mel | Sym => true | _ => false end.
Definition seal_cap (d : denom) (s : wstate) : N :=
  bootstrap K d s + (if is_pegged d then peg_cap s + (if denom_eqb d Mel then 0 else subsidy s) else 0).

Lemma seal_grows d s a s' : seal SO s a = Ok s' -> seal_premises K SO s -> grows d (seal_cap d s) s s'.
Proof.
  intros H [R U]%seal_premises_ready.
  pose proof (seal_settles K Kcodes SO K_builtins s a s' d H R U) as S.
  unfold grows, seal_cap, held, peg_cap, subsidy. unfold mass, issued, peg_room, sym_subsidy in S.
  destruct d; cbn [is_pegged denom_eqb] in *; lia.
Qed.

Lemma next_grows d s hdr : grows d 0 s (next_unsealed s hdr).
Proof.
  assert (Efee: s_fee_pool (next_unsealed s hdr) = s_fee_pool s) by apply next_unsealed_link.
  assert (Etips: s_tips (next_unsealed s hdr) = s_tips s) by apply next_unsealed_link.
  pose proof (next_unsealed_pools s hdr) as Ep.
  unfold grows, held. rewrite next_unsealed_coins, Efee, Etips, (psum_same K d _ _ Ep), (liq_of_same K SO d _ _ Ep). lia.
Qed.

Definition step_issuance (d : denom) (s : wstate) (o : hop) : N :=
  match o with
  | HBatch lh txs => match apply_tx_batch SO s lh txs with Ok _ => batch_issuance d txs | _ => 0 end
  | HBlock a hdr => match seal SO s a with Ok _ => seal_cap d s | _ => 0 end
  end.
Fixpoint hist_issuance (d : denom) (s : wstate) (ops : list hop) : N :=
  match ops with [] => 0 | o :: r => step_issuance d s o + hist_issuance d (hstep SO s o) r end.

Definition supply_step_ok (s : wstate) (o : hop) : Prop :=
  match o with HBatch lh txs => HashOK SO s txs | HBlock a hdr => seal_premises K SO s end.

Lemma hstep_grows d s o : d <> NewCustom -> supply_step_ok s o -> grows d (step_issuance d s o) s (hstep SO s o).
Proof.
  intros Hd Hok. destruct o as [lh txs|a hdr]; cbn [hstep step_issuance supply_step_ok] in *.
  - destruct (apply_tx_batch SO s lh txs) as [s'| |] eqn:E; [|apply grows_refl|apply grows_refl].
    exact (batch_settles K SO d s lh txs s' Hd E Hok).
  - destruct (seal SO s a) as [s'| |] eqn:E; [|apply grows_refl|apply grows_refl].
    replace (seal_cap d s) with (seal_cap d s + 0) by lia.
    eapply grows_trans; [eapply seal_grows; eauto|apply next_grows].
Qed.

Theorem supply_history d : d <> NewCustom -> forall ops s,
  hist_all SO supply_step_ok s ops -> grows d (hist_issuance d s ops) s (fold_left (hstep SO) ops s).
Proof.
  intros Hd. induction ops as [|o r IH]; intros s H; cbn [fold_left hist_issuance]; [apply grows_refl|].
  destruct H as [H1 H2]. eapply grows_trans; [apply hstep_grows; assumption|apply IH; exact H2].
Qed.

(* MEL and SYM are no pool's liquidity token *)
Corollary supply_history_pegged d ops s : pegged d ->
  hist_all SO supply_step_ok s ops -> held K d (fold_left (hstep SO) ops s) <= held K d s + hist_issuance d s ops.
Proof.
  intros P H. assert (Hd: d <> NewCustom) by (destruct P as [-> | ->]; discriminate).
  pose proof (supply_history d Hd ops s H) as G. unfold grows in G. rewrite !(liq_of_pegged K SO d _ P) in G. lia.
Qed.

(* the definitions, spelled out for the property files *)
Lemma grows_def d x s s' : grows d x s s' <-> held K d s' + liq_of K SO d s <= held K d s + liq_of K SO d s' + x.
Proof. reflexivity. Qed.
Lemma seal_cap_def d s :
  seal_cap d s = bootstrap K d s + (match d with Mel => peg_cap s | Sym => peg_cap s + subsidy s | _ => 0 end).
Proof. unfold seal_cap. destruct d; cbn [is_pegged denom_eqb]; lia. Qed.
Lemma step_issuance_def d s o :
  step_issuance d s o =
  match o with
  | HBatch lh txs => match apply_tx_batch SO s lh txs with Ok _ => batch_issuance d txs | _ => 0 end
  | HBlock a hdr => match seal SO s a with Ok _ => seal_cap d s | _ => 0 end
  end.
Proof. reflexivity. Qed.
Lemma hist_issuance_def d s ops :
  hist_issuance d s ops = match ops with [] => 0 | o :: r => step_issuance d s o + hist_issuance d (hstep SO s o) r end.
Proof. destruct ops; reflexivity. Qed.
Lemma supply_step_ok_def s o :
  supply_step_ok s o <-> match o with HBatch lh txs => HashOK SO s txs | HBlock a hdr => seal_premises K SO s end.
Proof. destruct o; reflexivity. Qed.
End SupplyHistory.
