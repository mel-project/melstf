(* C09 for sealing: [seal] returns a state (it never panics) on every state that satisfies the invariants proved
   elsewhere for reachable states - the counts invariant (C20), live built-in pools that cannot be drained (C16) -
   and the stated bounds (height below the shift limit of the TIP-909 schedule, fee pool and tips that fit). *)
From MelVerif Require Import STF.Proofs.Tactics STF.Proofs.SealSteps STF.Proofs.Frame STF.Proofs.Supply
  STF.Proofs.Pool STF.Proofs.Total STF.Proofs.SealCoins STF.Proofs.SealSupply STF.Proofs.PoolKeys STF.Proofs.SealLift
  STF.Proofs.SealInv STF.Proofs.SealCounts.
From Coq Require Import ZifyN ZifyNat ZifyBool.
Open Scope N_scope.

Definition sided (p : pool) : Prop := 1 <= p_lefts p /\ 1 <= p_rights p.

Lemma live_at_sided s k : live_at s k -> exists p, get_pool s k = Some p /\ sided p.
Proof. intros (p & Ep & A & B & _). exists p. split; [exact Ep|split; assumption]. Qed.

Section Loop.
Variable f : denom * denom -> wstate -> list tx -> res wstate.
Variable reqs : list tx.
Variable G : wstate -> Prop.                           (* a global invariant the loop body keeps *)
Variable R : option pool -> Prop.                      (* "ready for its turn": a fact about the pool alone *)
Hypothesis turn : forall k s s', f k s (txs_for_pool reqs k) = Ok s' -> touches k (txs_for_pool reqs k) s s'.
Hypothesis total : forall k s, G s -> R (get_pool s k) -> exists s', f k s (txs_for_pool reqs k) = Ok s' /\ G s'.

Lemma for_pools_ready_total ks s :
  NoDup (map poolkey_code ks) -> G s -> (forall k, In k ks -> R (get_pool s k)) ->
  exists s', for_pools f reqs ks s = Ok s' /\ G s'.
Proof.
  intros Hnd Hg Hr.
  destruct (for_pools_total f reqs (fun ks s0 => NoDup (map poolkey_code ks) /\ G s0 /\ forall k, In k ks -> R (get_pool s0 k)))
    with (ks := ks) (s := s) as (s' & E & _ & Hg' & _); [|auto|eauto].
  intros k ks0 s0 (Hnd0 & Hg0 & Hr0). cbn [map] in Hnd0. inversion Hnd0 as [|? ? Hni Hnd']; subst.
  destruct (total k s0 Hg0 (Hr0 k (or_introl eq_refl))) as (s1 & H1 & Hg1). exists s1.
  split; [exact H1|]. split; [exact Hnd'|]. split; [exact Hg1|].
  intros k2 Hk2. rewrite (proj1 (proj2 (turn k s0 s1 H1)) k2); [apply Hr0; right; exact Hk2|].
  intros E. apply Hni. rewrite <- E. apply in_map. exact Hk2.
Qed.
End Loop.

Lemma swaps_single_pool_total k s swaps p :
  get_pool s k = Some p -> sided p -> exists s', swaps_single_pool k s swaps = Ok s'.
Proof.
  intros Ep [HL HR]. unfold swaps_single_pool, swap_total. rewrite Ep.
  match goal with |- context [swap_many p (sat_sum ?a) (sat_sum ?b)] =>
    destruct (swap_many_total p _ _ HL HR (sat_sum_max a) (sat_sum_max b)) as (p' & lw & rw & E & _) end.
  rewrite E. cbn [obind]. eauto.
Qed.

Lemma process_swaps_total s :
  NoDup (map poolkey_code (pool_keys_sorted (List.filter (is_swap_request s) (sorted_txs s)))) ->
  exists s', process_swaps s = Ok s'.
Proof.
  intros Hnd. unfold process_swaps.
  destruct (for_pools_ready_total swaps_single_pool (List.filter (is_swap_request s) (sorted_txs s)) (fun _ => True)
              (fun o => exists p, o = Some p /\ sided p))
    with (ks := pool_keys_sorted (List.filter (is_swap_request s) (sorted_txs s))) (s := s) as (s' & E & _); eauto.
  - intros k s0 s1. apply swaps_single_pool_touches.
  - intros k s0 _ (p & Ep & Hs). destruct (swaps_single_pool_total k s0 (txs_for_pool (List.filter (is_swap_request s) (sorted_txs s)) k) p Ep Hs) as [s1 E1]. eauto.
  - intros k Hk. apply pool_keys_sorted_in in Hk as (t & Ht & Etp). apply filter_In in Ht as [_ Hreq].
    destruct (swap_request_spec s t Hreq) as (_ & k' & p & c & Etp' & Ep & H1 & H2 & _).
    rewrite Etp in Etp'. injection Etp' as <-. exists p. split; [exact Ep|split; assumption].
Qed.

Section Phases.
Variable SO : stf_oracle.

Definition dep_ready (o : option pool) : Prop :=
  match o with Some p => p_liqs p = 0 \/ sided p | None => True end.

Lemma pool_deposit_total p l r : p_liqs p = 0 \/ sided p -> exists p' m, pool_deposit p l r = Ok (p', m).
Proof.
  intros H. unfold pool_deposit. destruct (N.eqb_spec (p_liqs p) 0) as [E|E]; [eauto|].
  destruct H as [H|(H1 & H2)]; [contradiction|].
  destruct (N.eqb_spec (p_lefts p * p_rights p) 0); [nia|]. eauto.
Qed.

Lemma deposits_single_pool_total k s deps :
  (forall t, In t deps -> In t (sorted_txs s)) -> Good s -> dep_ready (get_pool s k) ->
  exists s', deposits_single_pool SO k s deps = Ok s' /\ Good s'.
Proof.
  intros Hl G Hr. unfold deposits_single_pool.
  match goal with |- context [pool_deposit ?p ?a ?b] => destruct (pool_deposit_total p a b) as (p' & m & E) end.
  { unfold dep_ready in Hr. destruct (get_pool s k); [exact Hr|left; reflexivity]. }
  rewrite E. cbn [obind]. apply deposits_go_total; [exact Hl|apply good_put_pool; exact G].
Qed.

Lemma deposit_request_ready s t k : is_deposit_request s t = true -> tx_pool t = Some k -> dep_ready (get_pool s k).
Proof.
  intros H Ek. destruct (deposit_request_spec s t H) as (_ & k' & _ & _ & Ek' & Hp & _). rewrite Ek in Ek'. injection Ek' as <-.
  unfold dep_ready. destruct (get_pool s k) as [p|]; [|exact I]. exact (Hp p eq_refl).
Qed.

Lemma process_deposits_total s :
  Good s ->
  NoDup (map poolkey_code (pool_keys_sorted (List.filter (is_deposit_request s) (sorted_txs s)))) ->
  exists s', process_deposits SO s = Ok s' /\ Good s'.
Proof.
  intros G Hnd. unfold process_deposits.
  set (reqs := List.filter (is_deposit_request s) (sorted_txs s)) in *.
  destruct (for_pools_ready_total (deposits_single_pool SO) reqs
              (fun s0 => Good s0 /\ s_txs s0 = s_txs s) dep_ready) with (ks := pool_keys_sorted reqs) (s := s)
    as (s' & E & G' & _); eauto.
  - intros k s0 s1. apply deposits_single_pool_touches.
  - intros k s0 [G0 T0] Hr. destruct (deposits_single_pool_total k s0 (txs_for_pool reqs k)) as (s1 & H1 & G1); [|exact G0|exact Hr|].
    { intros t Ht. apply txs_for_pool_sub in Ht. apply filter_In in Ht as [Ht _]. rewrite (txs_same _ _ T0). exact Ht. }
    exists s1. split; [exact H1|]. split; [exact G1|]. apply deposits_single_pool_touches, proj1, frame_fp_txs in H1. congruence.
  - intros k Hk. apply pool_keys_sorted_in in Hk as (t & Ht & Etp). apply filter_In in Ht as [_ Hreq].
    eapply deposit_request_ready; eauto.
Qed.

Lemma process_withdrawals_total s :
  NoDup (map poolkey_code (pool_keys_sorted (List.filter (is_withdraw_request SO s) (sorted_txs s)))) ->
  exists s', process_withdrawals SO s = Ok s'.
Proof.
  intros Hnd. unfold process_withdrawals.
  set (reqs := List.filter (is_withdraw_request SO s) (sorted_txs s)) in *.
  destruct (for_pools_ready_total withdrawals_single_pool reqs (fun _ => True) is_Some) with (ks := pool_keys_sorted reqs) (s := s)
    as (s' & E & _); eauto.
  - intros k s0 s1. apply withdrawals_single_pool_touches.
  - intros k s0 _ (p & Ep). edestruct guarded_withdraw_cannot_panic as [s1 E1]; [exact Ep|]. eauto.
  - intros k Hk. apply pool_keys_sorted_in in Hk as (t & Ht & Etp). apply filter_In in Ht as [_ Hreq].
    destruct (withdraw_request_spec SO s t Hreq) as (_ & _ & k' & p & _ & Etp' & Ep & _).
    rewrite Etp in Etp'. injection Etp' as <-. exists p. exact Ep.
Qed.
End Phases.

Lemma microergs_pos h : 1 <= microergs_per_dosc h.
Proof.
  unfold microergs_per_dosc. destruct (h <=? 3000000); [unfold MICRO; lia|].
  assert (G: forall n, 4000000 <= N.iter n inflator_step 4000000).
  { intros n. induction n using N.peano_ind; [cbn; lia|]. rewrite N.iter_succ. unfold inflator_step at 1. lia. }
  specialize (G (h - 3000000)). lia.
Qed.

Lemma peg_leg_total p c l r :
  sided p -> l <= MAX128 -> r <= MAX128 -> exists p', peg_leg c p l r = Ok p' /\ sided p'.
Proof.
  intros Hs Hl Hr. unfold peg_leg. destruct c; [|eauto].
  destruct (swap_many_total p l r (proj1 Hs) (proj2 Hs) Hl Hr) as (p' & lw & rw & E & Hs' & _). rewrite E. cbn [obind fst]. eauto.
Qed.

Lemma throttled_fits y z th : th <> 0 -> (to_u128_sat y - z) / th <= MAX128.
Proof. intros H. exact (below_quotient _ _ _ (throttled_le y z th H)). Qed.

(* the conclusion is the tail of process_pegging word for word, so that [apply] finds it *)
Lemma peg_tail_total s sm xn th :
  sided sm -> 1 <= xn -> th <> 0 -> forall xd,
  exists s',
    (let konstant := p_lefts sm * p_rights sm in
     let dn := microergs_per_dosc (s_height s) * xn in
     let dd := MICRO * xd in
     if dn =? 0 then Panic P_RATIO_ZERO else
     let desired_mel := to_u128_sat (N.sqrt (konstant * dd / dn)) in
     let desired_sym := to_u128_sat (N.sqrt (konstant * dn / dd)) in
     sm1 <- peg_leg (p_lefts sm <? desired_mel) sm ((desired_mel - p_lefts sm) / th) 0 ;;
     sm2 <- peg_leg (p_rights sm1 <? desired_sym) sm1 0 ((desired_sym - p_rights sm1) / th) ;;
     Ok (put_pool s (poolkey_new Mel Sym) sm2)) = Ok s'.
Proof.
  intros Hsm Hxn Hth xd. cbn zeta.
  pose proof (microergs_pos (s_height s)) as Hm.
  destruct (N.eqb_spec (microergs_per_dosc (s_height s) * xn) 0) as [E0|_]; [nia|].
  match goal with |- context [peg_leg ?c sm ?l 0] =>
    destruct (peg_leg_total sm c l 0 Hsm (throttled_fits _ _ th Hth) (N.le_0_l _)) as (sm1 & -> & Hs1) end.
  cbn [obind].
  match goal with |- context [peg_leg ?c sm1 0 ?r0] =>
    destruct (peg_leg_total sm1 c 0 r0 Hs1 (N.le_0_l _) (throttled_fits _ _ th Hth)) as (sm2 & -> & _) end.
  cbn [obind]. eauto.
Qed.

Lemma process_pegging_total s :
  (exists sm, get_pool s (poolkey_new Mel Sym) = Some sm /\ sided sm) ->
  (tip_902 s = true -> exists es, get_pool s (poolkey_new Erg Sym) = Some es /\ sided es) ->
  (tip_902 s = false -> exists me, get_pool s (poolkey_new Mel Erg) = Some me /\ sided me) ->
  exists s', process_pegging s = Ok s'.
Proof.
  intros (sm & Esm & Hsm) Hes Hme. unfold process_pegging. rewrite Esm.
  destruct Hsm as [S1 S2]. destruct (tip_902 s).
  - destruct (Hes eq_refl) as (es & Ees & E1 & E2). change (poolkey_new Sym Erg) with (poolkey_new Erg Sym). rewrite Ees.
    destruct (N.eqb_spec (p_rights es) 0); [lia|]. destruct (N.eqb_spec (p_lefts es) 0); [lia|]. cbn [orb obind].
    apply (peg_tail_total s sm (p_rights es) 200 (conj S1 S2) E2); discriminate.
  - destruct (Hme eq_refl) as (me & Eme & E1 & E2). rewrite Eme.
    destruct (N.eqb_spec (p_rights sm) 0); [lia|]. destruct (N.eqb_spec (p_lefts sm) 0); [lia|].
    destruct (N.eqb_spec (p_rights me) 0); [lia|]. destruct (N.eqb_spec (p_lefts me) 0); [lia|]. cbn [orb obind].
    apply (peg_tail_total s sm (p_rights sm * p_lefts me) 1000 (conj S1 S2)); [nia|discriminate].
Qed.

(* the TIP-909 subsidy: two one-sided swaps of at most 2^20 SYM; the MEL paid out by the first comes out of
   the MEL/SYM reserve, so the fee pool still fits *)
Lemma apply_tip_909_total s sm :
  (s_height s - TIP_909_HEIGHT) / 1000000 < 128 ->
  poolkey_code (poolkey_new Mel Sym) <> poolkey_code (poolkey_new Erg Sym) ->
  get_pool s (poolkey_new Mel Sym) = Some sm -> sided sm -> s_fee_pool s + p_lefts sm < U128 ->
  (exists es, get_pool s (poolkey_new Erg Sym) = Some es /\ sided es) ->
  exists s', apply_tip_909 s = Ok s' /\ s_tips s' = s_tips s /\ s_fee_pool s' <= s_fee_pool s + p_lefts sm.
Proof.
  intros Hh Hne Esm Hsm Hfit (es & Ees & Hes). unfold apply_tip_909.
  destruct (N.leb_spec 128 ((s_height s - TIP_909_HEIGHT) / 1000000)) as [|_]; [lia|]. rewrite Esm.
  set (reward := N.shiftr (2 ^ 20) ((s_height s - TIP_909_HEIGHT) / 1000000)).
  destruct (subsidy_split reward (tip_909a s)) as (Hf & He & _). destruct Hsm as [SL SR]. destruct Hes as [EL ER].
  match goal with |- context [swap_many sm 0 ?f] =>
    destruct (swap_many_total sm 0 f SL SR (N.le_0_l _) (subsidy_fits _ _ Hf)) as (sm' & mel & x & E & _) end.
  rewrite E. cbn [obind].
  assert (Hmel: mel <= p_lefts sm) by (destruct (swap_many_flow _ _ _ _ _ _ E) as (G & _); lia).
  unfold add128. cbn [s_fee_pool put_pool set_pools].
  destruct (N.ltb_spec (s_fee_pool s + mel) U128) as [_|Hov]; [|lia]. cbn [obind].
  change (tip_909a (set_fees _ _ _)) with (tip_909a s).
  match goal with |- context [get_pool ?st (poolkey_new Erg Sym)] =>
    replace (get_pool st (poolkey_new Erg Sym)) with (Some es) by (symmetry; rewrite <- Ees; apply lookup_insert_ne, Hne) end.
  match goal with |- context [swap_many es 0 ?e] =>
    destruct (swap_many_total es 0 e EL ER (N.le_0_l _) (subsidy_fits _ _ He)) as (es' & a & b & E2 & _) end.
  rewrite E2. cbn [obind]. eexists. split; [reflexivity|]. split; [reflexivity|].
  cbn [s_fee_pool put_pool set_pools set_fees]. lia.
Qed.

Lemma collect_proposer_fee_total SO s act : s_fee_pool s + s_tips s < U128 -> exists s', collect_proposer_fee SO s act = Ok s'.
Proof.
  intros Hfit. unfold collect_proposer_fee, add128.
  destruct (N.ltb_spec (s_fee_pool s / 65536 + s_tips s) U128) as [_|Hov]; [cbn [obind]; eauto|].
  assert (s_fee_pool s / 65536 <= s_fee_pool s) by (apply N.div_le_upper_bound; lia). lia.
Qed.

Section SealTotal.
Variable SO : stf_oracle.
Variable s : wstate.

Definition builtin (k : denom * denom) : Prop := k = MS \/ k = ME \/ k = ES.
Definition named (k : denom * denom) : Prop := builtin k \/ exists t, In t (sorted_txs s) /\ tx_pool t = Some k.

(* PoolKey::to_bytes is injective on them *)
Hypothesis codes_inj : forall k1 k2, named k1 -> named k2 -> poolkey_code k1 = poolkey_code k2 -> k1 = k2.
(* C20's invariant *)
Hypothesis Hgood : Good s.
(* C16: the built-in pools that exist are live ... *)
Hypothesis builtins_live : forall k p, builtin k -> get_pool s k = Some p -> live p.
(* ... and the withdrawals of the block ask for less of their liquidity than they recorded *)
Hypothesis wd_ok : forall k, builtin k -> is_Some (get_pool (create_builtins s) k) -> forall s2 s3 p3,
  process_swaps (create_builtins s) = Ok s2 -> process_deposits SO s2 = Ok s3 -> get_pool s3 k = Some p3 ->
  sat_sum (map (fun t => cd_value (out0 t)) (txs_for_pool (List.filter (is_withdraw_request SO s3) (sorted_txs s3)) k)) < p_liqs p3.
(* the subsidy schedule's shift stays below 128 *)
Hypothesis height_ok : (s_height s - TIP_909_HEIGHT) / 1000000 < 128.
(* the MEL of the fee pool, the tips and the MEL/SYM reserve fit a u128 (C09's supply bound) *)
Hypothesis fee_fits : forall s1 sm, preseal_melmint SO s = Ok s1 -> get_pool s1 MS = Some sm ->
  s_fee_pool s + p_lefts sm + s_tips s < U128.

Lemma builtin_named k : builtin k -> named k.
Proof. intros H. left. exact H. Qed.

Lemma builtin_codes_differ : poolkey_code MS <> poolkey_code ME /\ poolkey_code MS <> poolkey_code ES /\ poolkey_code ME <> poolkey_code ES.
Proof. repeat split; vm_compute; discriminate. Qed.

Lemma nodup_codes_of_keys (ks : list (denom * denom)) :
  NoDup ks -> (forall k1 k2, In k1 ks -> In k2 ks -> poolkey_code k1 = poolkey_code k2 -> k1 = k2) -> NoDup (map poolkey_code ks).
Proof.
  induction ks as [|k ks IH]; intros Hnd Hinj; cbn [map]; constructor.
  - inversion Hnd as [|? ? Hni _]; subst. intros Hin. apply in_map_iff in Hin as (k2 & E & Hk2).
    assert (k2 = k) by (apply Hinj; [right; exact Hk2|left; reflexivity|exact E]). subst k2. contradiction.
  - inversion Hnd; subst. apply IH; [assumption|]. intros k1 k2 Hk1 Hk2. apply Hinj; right; assumption.
Qed.

Lemma phase_nodup (flt : tx -> bool) : NoDup (map poolkey_code (pool_keys_sorted (List.filter flt (sorted_txs s)))).
Proof.
  apply nodup_codes_of_keys; [apply pool_keys_sorted_nodup|].
  intros k1 k2 H1 H2 E. apply pool_keys_sorted_in in H1 as (t1 & Ht1 & Et1). apply pool_keys_sorted_in in H2 as (t2 & Ht2 & Et2).
  apply filter_In in Ht1 as [Ht1 _]. apply filter_In in Ht2 as [Ht2 _].
  apply codes_inj; [right; eauto|right; eauto|exact E].
Qed.
Lemma phase_inj (flt : tx -> bool) k : builtin k -> code_apart (pool_keys_sorted (List.filter flt (sorted_txs s))) k.
Proof.
  intros Hb k1 Hk1 E. apply pool_keys_sorted_in in Hk1 as (t & Ht & Et). apply filter_In in Ht as [Ht _].
  apply codes_inj; [right; eauto|left; exact Hb|exact E].
Qed.

Lemma two_keys_size (m : gmap N pool) a b x y : a <> b -> m !! a = Some x -> m !! b = Some y -> 2 <= N.of_nat (size m).
Proof.
  intros Hne Ha Hb.
  rewrite <- (insert_delete m a x Ha). rewrite map_size_insert_None by apply lookup_delete.
  assert (Hb': delete a m !! b = Some y) by (rewrite lookup_delete_ne by exact Hne; exact Hb).
  rewrite <- (insert_delete (delete a m) b y Hb'). rewrite map_size_insert_None by apply lookup_delete. lia.
Qed.

Lemma bootstrap_live k p : builtin k -> get_pool (create_builtins s) k = Some p -> live p.
Proof.
  intros Hb. rewrite create_builtins_get. destruct (get_pool s k) as [p0|] eqn:E0.
  - intros Ep. injection Ep as <-. exact (builtins_live k p0 Hb E0).
  - destruct (bootstrap_creates s (poolkey_code k)); [|discriminate]. intros Ep. injection Ep as <-. exact builtin_pool_live.
Qed.

Lemma bootstrap_es : tip_902 s = true -> is_Some (get_pool (create_builtins s) ES).
Proof.
  intros T. rewrite create_builtins_get. destruct (get_pool s ES); [eauto|].
  unfold bootstrap_creates. rewrite T. cbn [andb]. unfold ES. rewrite N.eqb_refl, orb_true_r. eauto.
Qed.

Lemma settlement_total :
  exists s2 s3 s4, process_swaps (create_builtins s) = Ok s2 /\ process_deposits SO s2 = Ok s3 /\
    process_withdrawals SO s3 = Ok s4 /\ frame_fp s4 = frame_fp s /\
    forall k, builtin k -> is_Some (get_pool (create_builtins s) k) -> live_at s4 k.
Proof.
  set (s1 := create_builtins s).
  assert (F1: frame_fp s1 = frame_fp s) by apply frame_create_builtins.
  destruct (frame_fp_facts _ _ F1) as (T1 & _).
  assert (G1: Good s1) by (unfold s1; destruct (create_builtins_set s) as [m ->]; exact Hgood).
  destruct (process_swaps_total s1) as (s2 & H2); [rewrite T1; apply phase_nodup|].
  pose proof (good_process_swaps _ _ G1 H2) as G2.
  destruct (frame_fp_facts _ _ (frame_process_swaps _ _ H2)) as (T2 & _). rewrite T1 in T2.
  destruct (process_deposits_total SO s2 G2) as (s3 & H3 & G3); [rewrite T2; apply phase_nodup|].
  destruct (frame_fp_facts _ _ (frame_process_deposits SO _ _ H3)) as (T3 & _). rewrite T2 in T3.
  destruct (process_withdrawals_total SO s3) as (s4 & H4); [rewrite T3; apply phase_nodup|].
  exists s2, s3, s4. split; [exact H2|]. split; [exact H3|]. split; [exact H4|]. split.
  { rewrite (frame_process_withdrawals SO _ _ H4), (frame_process_deposits SO _ _ H3), (frame_process_swaps _ _ H2). exact F1. }
  intros k Hb E1. apply (settlement_keeps_live SO s1 s2 s3 s4 k H2 H3 H4).
  - destruct E1 as [p1 E1]. exists p1. split; [exact E1|exact (bootstrap_live k p1 Hb E1)].
  - intros flt. rewrite T1. apply phase_inj. exact Hb.
  - intros p3 E3. exact (wd_ok k Hb E1 s2 s3 p3 H2 H3 E3).
Qed.

Theorem seal_total a : exists s', seal SO s a = Ok s'.
Proof.
  destruct builtin_codes_differ as (D1 & D2 & _).
  destruct settlement_total as (s2 & s3 & s4 & H2 & H3 & H4 & F4 & Live4). set (s1 := create_builtins s) in *.
  destruct (create_builtins_exist s) as [Ems1 Eme1]. fold s1 in Ems1, Eme1.
  assert (BMS: builtin MS) by (left; reflexivity). assert (BME: builtin ME) by (right; left; reflexivity).
  assert (BES: builtin ES) by (right; right; reflexivity).
  destruct (frame_fp_facts _ _ F4) as (_ & _ & _ & _ & _ & Tip4).
  destruct (process_pegging_total s4) as (s5 & H5).
  { exact (live_at_sided s4 MS (Live4 MS BMS Ems1)). }
  { intros T. unfold tip_902 in T. rewrite Tip4 in T. exact (live_at_sided s4 ES (Live4 ES BES (bootstrap_es T))). }
  { intros _. exact (live_at_sided s4 ME (Live4 ME BME Eme1)). }
  assert (Hpre: preseal_melmint SO s = Ok s5) by (apply preseal_inv; exists s2, s3, s4; repeat split; assumption).
  assert (F5: frame_fp s5 = frame_fp s) by (rewrite (frame_process_pegging _ _ H5); exact F4).
  destruct (frame_fp_facts _ _ F5) as (_ & _ & Eh5 & Efp5 & Etips5 & Tip5).
  assert (Live5: forall k, builtin k -> is_Some (get_pool s1 k) -> live_at s5 k).
  { intros k Hb E1. exact (process_pegging_keeps_live s4 s5 k H5 (Live4 k Hb E1)). }
  destruct (Live5 MS BMS Ems1) as (ms5 & Ems5 & Lms5). destruct (Live5 ME BME Eme1) as (me5 & Eme5 & Lme5).
  assert (Hcnt: pool_count_ok s5 = true) by (apply N.leb_le; exact (two_keys_size _ _ _ _ _ D1 Ems5 Eme5)).
  pose proof (fee_fits s5 ms5 Hpre Ems5) as Hfit.
  assert (H6: exists s6, (if tip_909 s5 then apply_tip_909 s5 else Ok s5) = Ok s6 /\ s_tips s6 = s_tips s /\ s_fee_pool s6 <= s_fee_pool s + p_lefts ms5).
  { destruct (tip_909 s5) eqn:T9; [|exists s5; split; [reflexivity|]; split; [exact Etips5|lia]].
    destruct (apply_tip_909_total s5 ms5) as (s6 & E6 & Et6 & Hle).
    - rewrite Eh5. exact height_ok.
    - exact D2.
    - exact Ems5.
    - destruct Lms5 as (A & B & _). split; assumption.
    - lia.
    - (* TIP-909 is later than TIP-902 on every network: the ERG/SYM pool exists *)
      assert (T2': tip_902 s = true).
      { unfold tip_909 in T9. rewrite Tip5 in T9. unfold tip_902. revert T9. unfold tip_condition.
        destruct (TIP_909_HEIGHT =? U64MAX); [discriminate|]. change (TIP_902_HEIGHT =? U64MAX) with false. cbn iota.
        destruct (s_network s =? MAINNET); [|auto]. intros T9. apply N.leb_le in T9. apply N.leb_le. unfold TIP_909_HEIGHT, TIP_902_HEIGHT in *. lia. }
      exact (live_at_sided s5 ES (Live5 ES BES (bootstrap_es T2'))).
    - exists s6. split; [exact E6|]. split; [congruence|lia]. }
  destruct H6 as (s6 & E6 & Et6 & Hf6).
  (* the proposer reward: the fee pool and the tips fit *)
  assert (H7: exists s', match a with
                         | None => s' = s6
                         | Some act => collect_proposer_fee SO (set_mult s6 (move_fee_multiplier (tip_901 s6) (s_fee_mult s6) (a_delta act))) act = Ok s'
                         end).
  { destruct a as [act|]; [|eauto]. apply collect_proposer_fee_total. cbn [s_fee_pool s_tips set_mult]. lia. }
  destruct H7 as (s' & H7). exists s'. apply seal_inv. exists s5, s6. auto.
Qed.

(* the [_def] lemmas spell a definition out for Properties/, where the statements are read *)
Lemma builtin_def k : builtin k <-> k = poolkey_new Mel Sym \/ k = poolkey_new Mel Erg \/ k = poolkey_new Erg Sym.
Proof. reflexivity. Qed.
Lemma named_def k : named k <-> builtin k \/ exists t, In t (sorted_txs s) /\ tx_pool t = Some k.
Proof. reflexivity. Qed.
End SealTotal.

Lemma live_def p : live p <-> 1 <= p_lefts p /\ 1 <= p_rights p /\ 1 <= p_liqs p.
Proof. reflexivity. Qed.

(* the withdrawal hypothesis of [seal_total] follows from C16's backing: a built-in pool whose token is
   backed with room to spare after the bootstrap cannot be asked for all of its liquidity *)
Section FromBacking.
Variable K : list (denom * denom).
Hypothesis Kcodes : NoDup (map poolkey_code K).
Variable SO : stf_oracle.
Hypothesis K_builtins : In MS K /\ In ME K /\ In ES K.
Hypothesis LD_inj : forall k1 k2, In k1 K -> In k2 K -> LDk SO k1 = LDk SO k2 -> k1 = k2.
Variable s : wstate.
Hypothesis Hleg : legacy_net s && (s_height s <? 978392) = false.
Hypothesis Hcover : forall t k1, In t (sorted_txs s) -> tx_pool t = Some k1 -> In k1 K /\ LDk SO k1 <> fst k1 /\ LDk SO k1 <> snd k1.
Hypothesis Hkeys : NoDup (key_pairs (sorted_txs s)).
Hypothesis Hd0 : forall t c, In t (sorted_txs s) -> s_coins s !! key0 t = Some c -> as_declared t c (out0 t).
Hypothesis Hd1 : forall t c, In t (sorted_txs s) -> s_coins s !! key1 t = Some c -> as_declared t c (out1 t).
Hypothesis Hs0 : nsum (map (fun t => cd_value (out0 t)) (sorted_txs s)) < U128.
Hypothesis Hs1 : nsum (map (fun t => cd_value (out1 t)) (sorted_txs s)) < U128.
Hypothesis Hsat : forall s2, process_swaps (create_builtins s) = Ok s2 ->
  forall k1 p'' m, In k1 K ->
    pool_deposit (pool_at s2 k1)
      (nsum (map (fun t => cd_value (out0 t)) (txs_for_pool (List.filter (is_deposit_request s2) (sorted_txs s2)) k1)))
      (nsum (map (fun t => cd_value (out1 t)) (txs_for_pool (List.filter (is_deposit_request s2) (sorted_txs s2)) k1))) = Ok (p'', m) ->
    p_liqs (pool_at s2 k1) + m < U128.
(* room to spare after the bootstrap: tokens in coins + tokens parked in reserves + 1 <= recorded liquidity *)
Hypothesis slack : forall k p1, builtin k -> get_pool (create_builtins s) k = Some p1 ->
  coin_supply (LDk SO k) (s_coins s) + psum K (LDk SO k) (create_builtins s) + 1 <= p_liqs p1.

Lemma builtin_in_K k : builtin k -> In k K.
Proof. destruct K_builtins as (A & B & C). intros [-> | [-> | ->]]; assumption. Qed.

Lemma wd_ok_from_backing : forall k, builtin k -> is_Some (get_pool (create_builtins s) k) -> forall s2 s3 p3,
  process_swaps (create_builtins s) = Ok s2 -> process_deposits SO s2 = Ok s3 -> get_pool s3 k = Some p3 ->
  sat_sum (map (fun t => cd_value (out0 t)) (txs_for_pool (List.filter (is_withdraw_request SO s3) (sorted_txs s3)) k)) < p_liqs p3.
Proof.
  intros k Hb [p1 E1] s2 s3 p3 H2 H3 E3.
  apply (withdrawals_ask_less K Kcodes SO LD_inj (create_builtins s) s2 s3 k p1 p3 H2 H3); try assumption.
  - exact (ready_create_builtins K SO s (ready_all K SO s Hleg Hcover Hkeys Hd0 Hd1 Hs0 Hs1)).
  - exact (Hsat s2 H2).
  - exact (builtin_in_K k Hb).
  - rewrite coins_create_builtins. exact (slack k p1 Hb E1).
Qed.

Lemma named_in_K k : named s k -> In k K.
Proof. intros [Hb|(t & Ht & E)]; [apply builtin_in_K; exact Hb|apply (Hcover t k Ht E)]. Qed.

(* sealing is total on every state that satisfies C20's invariant and C16's invariant (live built-in pools, backed
   with room to spare), under the side conditions of the conservation theorems and the two bounds *)
Theorem seal_total_from_invariants :
  Good s ->
  (forall k p, builtin k -> get_pool s k = Some p -> live p) ->
  (s_height s - TIP_909_HEIGHT) / 1000000 < 128 ->
  (forall s1 sm, preseal_melmint SO s = Ok s1 -> get_pool s1 MS = Some sm -> s_fee_pool s + p_lefts sm + s_tips s < U128) ->
  forall a, exists s', seal SO s a = Ok s'.
Proof.
  intros G L Hh Hf. apply (seal_total SO s); try assumption.
  - intros k1 k2 H1 H2 E. apply (K_code_inj K Kcodes); [apply named_in_K; exact H1|apply named_in_K; exact H2|exact E].
  - exact wd_ok_from_backing.
Qed.
End FromBacking.
