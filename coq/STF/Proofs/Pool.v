(* C15 / C16: Melswap arithmetic (PoolState::swap_many / deposit / withdraw, multiply_ratio). *)
From MelVerif Require Import STF.Proofs.Tactics.
From Coq Require Import ZifyN ZifyNat ZifyBool.
Open Scope N_scope.

Lemma div_mul_le a b : b <> 0 -> a / b * b <= a.
Proof. intros H. rewrite N.mul_comm. apply N.mul_div_le. exact H. Qed.

Lemma scaled_neq0 x : 1 <= x -> x * 1000 <> 0.
Proof. lia. Qed.

Lemma to_u128_sat_small x : x < U128 -> to_u128_sat x = x.
Proof. unfold to_u128_sat. intros H. destruct (N.ltb_spec x U128); [reflexivity|lia]. Qed.

Lemma MAX128_lt x : x <= MAX128 <-> x < U128.
Proof. unfold MAX128, U128. lia. Qed.

Lemma to_u128_sat_below x y : x < y -> y <= MAX128 -> to_u128_sat x = x.
Proof. intros H1 H2%MAX128_lt. apply to_u128_sat_small. exact (N.lt_trans _ _ _ H1 H2). Qed.

Lemma to_u128_sat_lt x : to_u128_sat x < U128.
Proof. unfold to_u128_sat. destruct (N.ltb_spec x U128); [assumption|]. apply MAX128_lt. reflexivity. Qed.

Lemma to_u128_sat_max x : to_u128_sat x <= MAX128.
Proof. apply MAX128_lt, to_u128_sat_lt. Qed.

Lemma sat_add_small a b : a + b < U128 -> sat_add128 a b = a + b.
Proof. intros H%MAX128_lt. unfold sat_add128. lia. Qed.

Lemma sat_add128_bounds a b :
  1 <= a -> b <= MAX128 -> 1 <= sat_add128 a b /\ b <= sat_add128 a b /\ sat_add128 a b <= MAX128.
Proof. assert (1 <= MAX128) by (unfold MAX128, U128; lia). unfold sat_add128. lia. Qed.

Lemma lt_sub_pos a b : a < b -> 1 <= b - a.
Proof. lia. Qed.

(* [out] is at most the constant-product payout floor(i * own * 995 / (other * 1000)) for [i] paid into the side
   that then holds [other], out of the side holding [own] *)
Section Payout.
Variables i own other out : N.
Hypothesis Hout : out * (other * 1000) <= i * own * 995.

Lemma payout_scaled : out * other <= i * own.
Proof using Hout. nia. Qed.

Lemma payout_lt : 1 <= own -> i <= other -> 1 <= other -> out < own.
Proof using Hout. nia. Qed.
End Payout.

Lemma payout_keeps_scaled own a i out :
  out <= own -> out * (a + i) <= i * own -> own * a <= (own - out) * (a + i).
Proof. intros H1 H2. rewrite N.mul_sub_distr_r. nia. Qed.

Lemma product_grows a b a' b' A B :
  0 < A * B -> A * b <= a' * B -> B * a <= b' * A -> a * b <= a' * b'.
Proof.
  intros H0 H1 H2. apply N.mul_le_mono_pos_r with (p := A * B); [exact H0|].
  replace (a * b * (A * B)) with ((A * b) * (B * a)) by ring.
  replace (a' * b' * (A * B)) with ((a' * B) * (b' * A)) by ring.
  apply N.mul_le_mono; assumption.
Qed.

Lemma swap_many_two_sided p l r :
  1 <= p_lefts p -> 1 <= p_rights p -> l <= MAX128 -> r <= MAX128 ->
  let L := sat_add128 (p_lefts p) l in
  let R := sat_add128 (p_rights p) r in
  let rw := l * R * 995 / (L * 1000) in
  let lw := r * L * 995 / (R * 1000) in
  lw < L /\ rw < R /\ exists acc,
    swap_many p l r = Ok ({| p_lefts := L - lw; p_rights := R - rw; p_accum := acc; p_liqs := p_liqs p |}, lw, rw).
Proof.
  intros HL HR Hl Hr L R.
  destruct (sat_add128_bounds _ _ HL Hl) as (HL1 & HlL & HLM).
  destruct (sat_add128_bounds _ _ HR Hr) as (HR1 & HrR & HRM). fold L R in HL1, HlL, HLM, HR1, HrR, HRM.
  intros rw lw.
  assert (Hlw : lw < L) by (apply (payout_lt r L R); [apply div_mul_le, scaled_neq0, HR1|assumption..]).
  assert (Hrw : rw < R) by (apply (payout_lt l R L); [apply div_mul_le, scaled_neq0, HL1|assumption..]).
  split; [exact Hlw|]. split; [exact Hrw|].
  unfold swap_many. fold L R. fold rw lw.
  rewrite (to_u128_sat_below rw R Hrw HRM), (to_u128_sat_below lw L Hlw HLM).
  (* the 2^128 bounds and the quotients have done their work; lia pays for every large constant and every
     division it sees *)
  clear HLM HRM Hl Hr. clearbody L R rw lw.
  destruct (N.eqb_spec R 0); [lia|]. destruct (N.eqb_spec L 0); [lia|].
  destruct (N.ltb_spec L lw); [lia|]. destruct (N.ltb_spec R rw); [lia|].
  destruct (N.eqb_spec (R - rw) 0); [lia|]. eauto.
Qed.

Lemma swap_many_inv p l r p' lw rw :
  swap_many p l r = Ok (p', lw, rw) ->
  let L := sat_add128 (p_lefts p) l in
  let R := sat_add128 (p_rights p) r in
  lw = to_u128_sat (r * L * 995 / (R * 1000)) /\ rw = to_u128_sat (l * R * 995 / (L * 1000)) /\
  lw <= L /\ rw < R /\ 1 <= L /\
  p_lefts p' = L - lw /\ p_rights p' = R - rw /\ p_liqs p' = p_liqs p.
Proof.
  intros H L R. unfold swap_many in H. fold L R in H.
  destruct (R =? 0); [discriminate|]. destruct (N.eqb_spec L 0); [discriminate|].
  destruct (N.ltb_spec L (to_u128_sat (r * L * 995 / (R * 1000)))); [discriminate|].
  destruct (N.ltb_spec R (to_u128_sat (l * R * 995 / (L * 1000)))); [discriminate|].
  destruct (N.eqb_spec (R - to_u128_sat (l * R * 995 / (L * 1000))) 0); [discriminate|].
  injection H as <- <- <-. cbn [p_lefts p_rights p_liqs]. repeat split; lia.
Qed.

Lemma swap_many_total p l r :
  1 <= p_lefts p -> 1 <= p_rights p -> l <= MAX128 -> r <= MAX128 ->
  exists p' lw rw, swap_many p l r = Ok (p', lw, rw) /\
    (1 <= p_lefts p' /\ 1 <= p_rights p') /\ p_liqs p' = p_liqs p.
Proof.
  intros HL HR Hl Hr. destruct (swap_many_two_sided p l r HL HR Hl Hr) as (Hlw & Hrw & acc & E).
  eexists _, _, _. split; [exact E|]. cbn [p_lefts p_rights p_liqs].
  split; [split; apply lt_sub_pos; assumption|reflexivity].
Qed.

Lemma swap_arith a b l r :
  1 <= a -> 1 <= b ->
  let L' := a + l in let R' := b + r in
  let rw := l * R' * 995 / (L' * 1000) in let lw := r * L' * 995 / (R' * 1000) in
  1 <= L' - lw /\ 1 <= R' - rw /\ a * b <= (L' - lw) * (R' - rw) /\
  rw * (L' * 1000) <= l * R' * 995 /\ lw * (R' * 1000) <= r * L' * 995.
Proof.
  intros Ha Hb L' R'.
  assert (HL : 1 <= L' /\ l <= L') by (unfold L'; lia). assert (HR : 1 <= R' /\ r <= R') by (unfold R'; lia).
  (* the quotients are introduced only now: lia pays for every division it finds in the context *)
  intros rw lw.
  assert (Blw : lw * (R' * 1000) <= r * L' * 995) by (apply div_mul_le, scaled_neq0, HR).
  assert (Brw : rw * (L' * 1000) <= l * R' * 995) by (apply div_mul_le, scaled_neq0, HL).
  clearbody rw lw.
  pose proof (payout_lt r L' R' lw Blw (proj1 HL) (proj2 HR) (proj1 HR)) as Hlw.
  pose proof (payout_lt l R' L' rw Brw (proj1 HR) (proj2 HL) (proj1 HL)) as Hrw.
  split; [apply lt_sub_pos, Hlw|]. split; [apply lt_sub_pos, Hrw|]. split; [|split; assumption].
  apply N.lt_le_incl in Hlw, Hrw.
  (* each new reserve, scaled by the opposite total, covers the old one: multiply and cancel L' * R' *)
  apply (product_grows _ _ _ _ L' R').
  - apply N.mul_pos_pos; apply (N.lt_le_trans 0 1 _ N.lt_0_1); [apply HL|apply HR].
  - apply payout_keeps_scaled; [exact Hlw|apply payout_scaled; exact Blw].
  - apply payout_keeps_scaled; [exact Hrw|apply payout_scaled; exact Brw].
Qed.

Section Swap.
Variable p : pool.
Variables l r : N.
Hypothesis HL : 1 <= p_lefts p.
Hypothesis HR : 1 <= p_rights p.
(* no saturation: the supply bound of C09 *)
Hypothesis HsumL : p_lefts p + l < U128.
Hypothesis HsumR : p_rights p + r < U128.

Let L' := p_lefts p + l.
Let R' := p_rights p + r.
Let rw := l * R' * 995 / (L' * 1000).
Let lw := r * L' * 995 / (R' * 1000).

(* swap_many never panics on a pool with two non-empty sides, pays out at the single price
   floor(in * other' * 995 / (own' * 1000)) on each side, keeps both reserves positive, leaves the
   issued liquidity alone and never decreases the reserve product *)
Theorem swap_many_spec :
  exists acc,
    swap_many p l r = Ok ({| p_lefts := L' - lw; p_rights := R' - rw; p_accum := acc; p_liqs := p_liqs p |}, lw, rw) /\
    1 <= L' - lw /\ 1 <= R' - rw /\
    p_lefts p * p_rights p <= (L' - lw) * (R' - rw) /\
    rw * (L' * 1000) <= l * R' * 995 /\ lw * (R' * 1000) <= r * L' * 995.
Proof.
  destruct (swap_many_two_sided p l r HL HR) as (_ & _ & acc & E).
  { apply MAX128_lt, (N.le_lt_trans _ _ _ (N.le_add_l l _) HsumL). }
  { apply MAX128_lt, (N.le_lt_trans _ _ _ (N.le_add_l r _) HsumR). }
  rewrite (sat_add_small _ _ HsumL), (sat_add_small _ _ HsumR) in E.
  exists acc. split; [exact E|]. exact (swap_arith _ _ l r HL HR).
Qed.
End Swap.

Lemma share_le x a b : b <> 0 -> a <= b -> x * a / b <= x.
Proof. intros Hb Hab. apply N.div_le_upper_bound; [assumption|nia]. Qed.

Lemma multiply_ratio_eq x a b : b <> 0 -> a <= b -> x < U128 -> multiply_ratio x a b = x * a / b.
Proof.
  intros Hb Hab Hx. unfold multiply_ratio. destruct (N.eqb_spec b 0); [contradiction|].
  apply to_u128_sat_small. pose proof (share_le x a b Hb Hab). lia.
Qed.

Lemma multiply_ratio_le x a b : a <= b -> x < U128 -> multiply_ratio x a b <= x.
Proof.
  intros Hab Hx. destruct (N.eqb_spec b 0) as [->|Hb]; [apply N.le_0_l|].
  rewrite multiply_ratio_eq by assumption. apply share_le; assumption.
Qed.

Fixpoint nsum (l : list N) : N := match l with [] => 0 | x :: t => x + nsum t end.

Lemma nsum_map_zero {A} (f : A -> N) l : (forall x, In x l -> f x = 0) -> nsum (map f l) = 0.
Proof.
  induction l as [|x l IH]; intros H; cbn [map nsum]; [reflexivity|].
  rewrite IH, H; [reflexivity|left; reflexivity|intros y Hy; apply H; right; exact Hy].
Qed.

Lemma nsum_filter_le {A} (f : A -> N) (p : A -> bool) : forall l, nsum (map f (List.filter p l)) <= nsum (map f l).
Proof.
  induction l as [|x l IH]; cbn [List.filter map nsum]; [lia|]. destruct (p x); cbn [map nsum]; lia.
Qed.

Lemma nsum_filter_lt {A} (f : A -> N) (p : A -> bool) l b : nsum (map f l) < b -> nsum (map f (List.filter p l)) < b.
Proof. apply N.le_lt_trans, nsum_filter_le. Qed.

(* pro-rata shares rounded down never add up to more than the whole *)
Theorem prorata_sum_le : forall (vs : list N) x T,
  x < U128 -> nsum vs <= T ->
  nsum (map (fun v => multiply_ratio x v T) vs) <= x.
Proof.
  intros vs x T Hx Hs. destruct (N.eqb_spec T 0) as [->|HT].
  { (* an empty total: every share is 0 *)
    clear Hs. induction vs as [|v l IH]; cbn [map nsum]; [lia|exact IH]. }
  (* each floor times T is at most x * v; add up and cancel T *)
  assert (G: forall l, nsum l <= T -> nsum (map (fun v => multiply_ratio x v T) l) * T <= x * nsum l).
  { induction l as [|v l IH]; intros Hl; cbn [map nsum] in *; [lia|].
    specialize (IH ltac:(lia)). rewrite multiply_ratio_eq by lia.
    pose proof (div_mul_le (x * v) T HT). nia. }
  specialize (G vs Hs). apply N.mul_le_mono_pos_r with (p := T); nia.
Qed.

(* clamped deposit shares: whatever the rounding of the individual shares, at most [avail] is handed out *)
Fixpoint clamped_shares (total total_mt : N) (mts : list N) (avail : N) : list N :=
  match mts with
  | [] => []
  | my :: rest => let v := N.min (multiply_ratio total my total_mt) avail in
                  v :: clamped_shares total total_mt rest (avail - v)
  end.

Theorem clamped_shares_le total total_mt : forall mts avail, nsum (clamped_shares total total_mt mts avail) <= avail.
Proof.
  induction mts as [|my rest IH]; intros avail; cbn [clamped_shares nsum]; [lia|].
  specialize (IH (avail - N.min (multiply_ratio total my total_mt) avail)). lia.
Qed.

(* withdraw: pays floor(reserve * l / liqs) of each side, the reserves and the issued liquidity move by
   exactly those amounts; never panics when l <= liqs and liqs > 0 *)
Theorem pool_withdraw_spec p l :
  l <= p_liqs p -> 0 < p_liqs p ->
  exists p' a b, pool_withdraw p l = Ok (p', a, b) /\
    p_liqs p' = p_liqs p - l /\ p_lefts p' = p_lefts p - a /\ p_rights p' = p_rights p - b /\
    a <= p_lefts p /\ b <= p_rights p /\
    (l < p_liqs p -> a = p_lefts p * l / p_liqs p /\ b = p_rights p * l / p_liqs p) /\
    (l = p_liqs p -> a = p_lefts p /\ b = p_rights p) /\
    (l < p_liqs p -> 1 <= p_lefts p -> 1 <= p_lefts p') /\
    (l < p_liqs p -> 1 <= p_rights p -> 1 <= p_rights p').
Proof.
  intros Hl Hq. unfold pool_withdraw.
  destruct (N.ltb_spec (p_liqs p) l); [lia|]. destruct (N.eqb_spec (p_liqs p) 0); [lia|].
  destruct (N.eqb_spec (p_liqs p - l) 0) as [E|E].
  - eexists _, _, _. split; [reflexivity|]. cbn. repeat split; try lia.
  - pose proof (share_le (p_lefts p) l (p_liqs p) ltac:(lia) Hl) as Ha.
    pose proof (share_le (p_rights p) l (p_liqs p) ltac:(lia) Hl) as Hb.
    eexists _, _, _. split; [reflexivity|]. cbn. repeat split; try lia.
    + intros Hlt HL. assert (p_lefts p * l / p_liqs p < p_lefts p); [|lia].
      apply N.div_lt_upper_bound; [lia|nia].
    + intros Hlt HR. assert (p_rights p * l / p_liqs p < p_rights p); [|lia].
      apply N.div_lt_upper_bound; [lia|nia].
Qed.

(* deposit: a fresh pool takes the deposit as is and issues `lefts` tokens; a live pool issues
   floor(sqrt(liqs^2 * dL * dR / (L * R))) and its reserves grow by exactly dL and dR *)
Theorem pool_deposit_spec p dl dr :
  p_lefts p + dl < U128 -> p_rights p + dr < U128 ->
  (p_liqs p = 0 -> pool_deposit p dl dr = Ok ({| p_lefts := dl; p_rights := dr; p_accum := p_accum p; p_liqs := dl |}, dl)) /\
  (0 < p_liqs p -> 0 < p_lefts p * p_rights p ->
     let minted := to_u128_sat (N.sqrt (p_liqs p * p_liqs p * (dl * dr) / (p_lefts p * p_rights p))) in
     pool_deposit p dl dr =
       Ok ({| p_lefts := p_lefts p + dl; p_rights := p_rights p + dr; p_accum := p_accum p;
              p_liqs := sat_add128 (p_liqs p) minted |}, minted)).
Proof.
  intros H1 H2. unfold pool_deposit. split.
  - intros ->. reflexivity.
  - intros Hq Hp. destruct (N.eqb_spec (p_liqs p) 0); [lia|].
    rewrite (sat_add_small dl (p_lefts p)), (sat_add_small dr (p_rights p)) by lia.
    destruct (N.eqb_spec (p_lefts p * p_rights p) 0); [lia|].
    replace (dl + p_lefts p - p_lefts p) with dl by lia.
    replace (dr + p_rights p - p_rights p) with dr by lia. reflexivity.
Qed.
