(* C01, whole batch: the supply of every denomination (coins + fee pool + tips; pools are untouched by a batch)
   after an accepted batch is at most the supply before plus the batch's explicit issuance. *)
From MelVerif Require Import STF.Proofs.Tactics STF.Proofs.MapLemmas STF.Proofs.Stakes STF.Proofs.Faucet
  STF.Proofs.Coins STF.Proofs.Supply STF.Proofs.Fees STF.Proofs.Pool STF.Proofs.HashFacts.
Open Scope N_scope.

Definition val (d : denom) (c : cdh) : N := if denom_eqb (cd_denom (c_data c)) d then cd_value (c_data c) else 0.
Definition vopt (d : denom) (o : option cdh) : N := match o with Some c => val d c | None => 0 end.

Lemma nsum_app a b : nsum (a ++ b) = nsum a + nsum b.
Proof. induction a as [|x a IH]; cbn [nsum app]; lia. Qed.

Lemma coin_supply_insert_le d k c m : coin_supply d (<[k := c]> m) <= coin_supply d m + val d c.
Proof.
  destruct (m !! k) as [c0|] eqn:E.
  - rewrite <- (insert_delete_insert m k c).
    rewrite coin_supply_insert_fresh by apply lookup_delete.
    rewrite (coin_supply_delete d k c0 m E). unfold val. lia.
  - rewrite coin_supply_insert_fresh by exact E. unfold val. lia.
Qed.

Lemma coin_supply_ins_all_le d : forall l m,
  coin_supply d (ins_all l m) <= coin_supply d m + nsum (map (fun kv => val d (snd kv)) l).
Proof.
  induction l as [|[k c] l IH]; intros m; cbn [ins_all fold_left map nsum fst snd]; [lia|].
  fold (ins_all l (<[k := c]> m)).
  pose proof (IH (<[k := c]> m)). pose proof (coin_supply_insert_le d k c m). lia.
Qed.

Lemma coin_supply_del_all d : forall ks m, NoDup ks ->
  coin_supply d m = coin_supply d (del_all ks m) + nsum (map (fun k => vopt d (m !! k)) ks).
Proof.
  induction ks as [|k ks IH]; intros m Hnd; cbn [del_all fold_left map nsum]; [lia|].
  fold (del_all ks (delete k m)).
  inversion Hnd as [|? ? Hk Hnd']; subst.
  assert (E: map (fun k0 => vopt d (delete k m !! k0)) ks = map (fun k0 => vopt d (m !! k0)) ks).
  { apply map_ext_in. intros k0 Hk0. rewrite lookup_delete_ne; [reflexivity|]. intros ->. contradiction. }
  specialize (IH (delete k m) Hnd'). rewrite E in IH.
  destruct (m !! k) as [c|] eqn:Ek; cbn [vopt].
  - rewrite (coin_supply_delete d k c m Ek). unfold val. lia.
  - rewrite delete_notin in IH by exact Ek. rewrite delete_notin by exact Ek. lia.
Qed.

Section Batch.
Variable SO : stf_oracle.
Variable s : wstate.
Variable lh : header.

(* explicit issuance of one transaction / of a batch in denomination d:
   everything a faucet declares (outputs and fee), a transaction's own new token, the ERG outputs of a mint *)
Definition issued_here (d : denom) (t : tx) (o : coindata) : bool :=
  denom_eqb (fix_denom t (cd_denom o)) d &&
  (txkind_eqb (t_kind t) KFaucet
   || (match cd_denom o with NewCustom => true | _ => false end)
   || (txkind_eqb (t_kind t) KDoscMint && denom_eqb d Erg)).
Definition tx_issuance (d : denom) (t : tx) : N :=
  nsum (map (fun o => if issued_here d t o then cd_value o else 0) (t_outputs t))
  + (if txkind_eqb (t_kind t) KFaucet && denom_eqb d Mel then t_fee t else 0).
Definition batch_issuance (d : denom) (txs : list tx) : N := nsum (map (tx_issuance d) txs).

Definition fee_part (d : denom) (x : N) : N := if denom_eqb d Mel then x else 0.

(* the value (in d) of what transaction t declares as outputs, new-token outputs under their final name *)
Definition declared (d : denom) (t : tx) : N :=
  nsum (map (fun o => if denom_eqb (fix_denom t (cd_denom o)) d then cd_value o else 0) (t_outputs t)).

Lemma fold_right_out d outs :
  fold_right (fun o acc => if denom_eqb d (cd_denom o) then cd_value o + acc else acc) 0 outs
  = nsum (map (fun o => if denom_eqb d (cd_denom o) then cd_value o else 0) outs).
Proof.
  induction outs as [|o outs IH]; cbn [fold_right map nsum]; [reflexivity|].
  rewrite IH. destruct (denom_eqb d (cd_denom o)); lia.
Qed.

Lemma nsum_le_pointwise {A} (f g : A -> N) : forall l, (forall x, In x l -> f x <= g x) -> nsum (map f l) <= nsum (map g l).
Proof.
  induction l as [|x l IH]; intros H; cbn [map nsum]; [lia|].
  pose proof (H x (or_introl eq_refl)). pose proof (IH (fun y Hy => H y (or_intror Hy))). lia.
Qed.

Lemma nsum_add_pointwise {A} (f g : A -> N) : forall l, nsum (map (fun x => f x + g x) l) = nsum (map f l) + nsum (map g l).
Proof.
  induction l as [|x l IH]; cbn [map nsum]; lia.
Qed.

Lemma declared_cases d t o :
  denom_eqb (fix_denom t (cd_denom o)) d = true -> issued_here d t o = true \/ denom_eqb d (cd_denom o) = true.
Proof.
  unfold issued_here. intros E. rewrite E. cbn [andb].
  destruct (cd_denom o); cbn [fix_denom] in E; try (right; rewrite denom_eqb_sym; exact E).
  left. rewrite orb_true_r. reflexivity.
Qed.

Lemma issued_special d t o :
  txkind_eqb (t_kind t) KFaucet || (txkind_eqb (t_kind t) KDoscMint && denom_eqb d Erg) = true ->
  issued_here d t o = denom_eqb (fix_denom t (cd_denom o)) d.
Proof.
  unfold issued_here. intros H. destruct (txkind_eqb (t_kind t) KFaucet); cbn [orb] in *.
  - apply andb_true_r.
  - rewrite H, orb_true_r. apply andb_true_r.
Qed.

Lemma accepted_tx_covered relevant ns t d :
  check_tx_validity SO s lh relevant ns t = Ok tt -> d <> NewCustom ->
  declared d t + fee_part d (t_fee t) <= in_sum relevant d (t_inputs t) + tx_issuance d t.
Proof.
  intros Hv Hd. unfold tx_issuance, fee_part.
  destruct (txkind_eqb (t_kind t) KFaucet || (txkind_eqb (t_kind t) KDoscMint && denom_eqb d Erg)) eqn:Es.
  - assert (E: declared d t = nsum (map (fun o => if issued_here d t o then cd_value o else 0) (t_outputs t))).
    { unfold declared. f_equal. apply map_ext. intros o. rewrite (issued_special d t o Es). reflexivity. }
    rewrite E. destruct (txkind_eqb (t_kind t) KFaucet); cbn [orb andb] in *; [destruct (denom_eqb d Mel); lia|].
    (* ERG is not MEL: a mint's fee is no part of the ERG supply *)
    apply andb_true_iff in Es as [_ Ee]. apply denom_eqb_eq in Ee. subst d. cbn [denom_eqb]. lia.
  - (* otherwise what is declared and not issued is ordinary, and that is balanced by the inputs *)
    apply orb_false_iff in Es as [Ef Em]. rewrite Ef. cbn [andb].
    assert (Hk: t_kind t <> KFaucet) by (intros E; rewrite E in Ef; discriminate).
    assert (Hm: ~ (t_kind t = KDoscMint /\ d = Erg)) by (intros [E1 E2]; rewrite E1, E2 in Em; discriminate).
    pose proof (accepted_tx_balanced SO s lh relevant ns t Hv Hk d Hd Hm) as Hbal.
    unfold out_sum in Hbal. rewrite fold_right_out in Hbal.
    assert (Hle: declared d t <= nsum (map (fun o => if issued_here d t o then cd_value o else 0) (t_outputs t))
                              + nsum (map (fun o => if denom_eqb d (cd_denom o) then cd_value o else 0) (t_outputs t))).
    { unfold declared. rewrite <- nsum_add_pointwise. apply nsum_le_pointwise. intros o _.
      destruct (denom_eqb (fix_denom t (cd_denom o)) d) eqn:E; [|lia].
      destruct (declared_cases d t o E) as [-> | ->]; lia. }
    destruct Hbal; lia.
Qed.

Definition coin_of (t : tx) (o : coindata) : cdh :=
  {| c_data := {| cd_covhash := cd_covhash o; cd_value := cd_value o;
                  cd_denom := fix_denom t (cd_denom o); cd_extra := cd_extra o |};
     c_height := s_height s |}.

Lemma in_created txs k c :
  In (k, c) (created s txs) <->
  exists t io, In t txs /\ In io (enumerate 0 (t_outputs t)) /\ k = key_of t io /\ (cd_covhash (snd io) =? 0) = false /\ c = coin_of t (snd io).
Proof.
  unfold created. rewrite in_flat_map. split.
  - intros (t & Ht & Hin). unfold output_coins in Hin. apply in_flat_map in Hin as ([i o] & Hio & Hin).
    destruct (cd_covhash o =? 0) eqn:E; [contradiction|]. destruct Hin as [Eq|[]]. injection Eq as <- <-.
    exists t, (i, o). auto.
  - intros (t & [i o] & Ht & Hio & -> & E & ->). exists t. split; [exact Ht|].
    unfold output_coins. apply in_flat_map. exists (i, o). split; [exact Hio|]. cbn [snd] in E. rewrite E. left. reflexivity.
Qed.

Lemma outputs_map_at txs t io :
  NoDup (out_keys txs) -> In t txs -> In io (enumerate 0 (t_outputs t)) ->
  outputs_map s txs !! key_of t io = if cd_covhash (snd io) =? 0 then None else Some (coin_of t (snd io)).
Proof.
  intros Hnd Ht Hio. rewrite outputs_map_ins_all.
  assert (Hall: forall v', In (key_of t io, v') (created s txs) ->
                  (cd_covhash (snd io) =? 0) = false /\ v' = coin_of t (snd io)).
  { intros v' Hin. apply in_created in Hin as (t' & io' & Ht' & Hio' & Ek & Ec & ->).
    destruct (out_keys_inj txs t io t' io' Hnd Ht Hio Ht' Hio' Ek) as [<- <-]. auto. }
  destruct (cd_covhash (snd io) =? 0) eqn:Ec.
  - rewrite ins_all_notin; [apply lookup_empty|]. intros Hin.
    apply in_map_fst in Hin as [v' Hin]. destruct (Hall _ Hin). discriminate.
  - apply ins_all_key; [intros v' Hin; apply Hall, Hin|]. apply in_created. exists t, io. auto.
Qed.

Lemma map_snd_enumerate {A} : forall (l : list A) i, map snd (enumerate i l) = l.
Proof. induction l as [|x l IH]; intros i; cbn [enumerate map snd]; [reflexivity|]. rewrite IH. reflexivity. Qed.

Lemma nsum_flat_map {A B} (g : B -> N) (h : A -> list B) : forall l,
  nsum (map g (flat_map h l)) = nsum (map (fun x => nsum (map g (h x))) l).
Proof.
  induction l as [|x l IH]; cbn [flat_map map nsum]; [reflexivity|].
  rewrite map_app, nsum_app, IH. reflexivity.
Qed.

Lemma val_marker d : val d marker_coin = 0.
Proof. unfold val, marker_coin. cbn. destruct d; reflexivity. Qed.

Lemma relevant_at_hash txs relevant t io :
  HashOK SO s txs -> load_relevant_coins s txs = Ok relevant -> In t txs -> In io (enumerate 0 (t_outputs t)) ->
  relevant !! key_of t io = if cd_covhash (snd io) =? 0 then None else Some (coin_of t (snd io)).
Proof.
  intros HK Hrel Ht Hio.
  rewrite <- (outputs_map_at txs t io (hk_out_nodup SO s txs HK (load_relevant_short _ _ _ Hrel)) Ht Hio).
  destruct (in_dec N.eq_dec (key_of t io) (all_inputs txs)) as [Hi|Hi].
  - rewrite (relevant_input s _ _ _ Hrel Hi). destruct (outputs_map s txs !! key_of t io); [reflexivity|].
    apply (hk_out_fresh SO s txs HK). apply in_out_keys; assumption.
  - exact (relevant_other s _ _ _ Hrel Hi).
Qed.

Lemma tx_inserts_hash txs relevant t :
  HashOK SO s txs -> load_relevant_coins s txs = Ok relevant -> In t txs ->
  tx_inserts SO relevant t =
  (if txkind_eqb (t_kind t) KFaucet && negb (is_bug_tx t) then [(marker_key SO t, marker_coin)] else [])
  ++ output_coins (s_height s) t.
Proof.
  intros HK Hrel Ht. unfold tx_inserts, output_coins. f_equal. apply flat_map_ext_In. intros [i o] Hio. cbn zeta.
  change (coin_key (t_hash t) (i mod 256)) with (key_of t (i, o)).
  rewrite (relevant_at_hash txs relevant t (i, o) HK Hrel Ht Hio). cbn [snd].
  destruct (cd_covhash o =? 0); reflexivity.
Qed.

Section Main.
Variable txs : list tx.
Variable relevant : gmap N cdh.
Hypothesis Hrel : load_relevant_coins s txs = Ok relevant.
Hypothesis HK : HashOK SO s txs.

Lemma tx_inserts_le_declared d t : In t txs ->
  nsum (map (fun kv => val d (snd kv)) (tx_inserts SO relevant t)) <= declared d t.
Proof.
  intros Ht. rewrite (tx_inserts_hash txs relevant t HK Hrel Ht), map_app, nsum_app.
  assert (E0: nsum (map (fun kv : N * cdh => val d (snd kv))
               (if txkind_eqb (t_kind t) KFaucet && negb (is_bug_tx t) then [(marker_key SO t, marker_coin)] else [])) = 0).
  { destruct (_ && _); cbn [map nsum snd]; [rewrite val_marker|]; reflexivity. }
  rewrite E0, N.add_0_l. unfold output_coins, declared. rewrite nsum_flat_map.
  rewrite <- (map_snd_enumerate (t_outputs t) 0) at 2. rewrite map_map.
  apply nsum_le_pointwise. intros [i o] _. cbn [snd].
  destruct (cd_covhash o =? 0); cbn [map nsum snd]; [lia|].
  unfold val. cbn [c_data cd_denom cd_value]. lia.
Qed.

Lemma batch_inserts_le_declared d :
  nsum (map (fun kv => val d (snd kv)) (flat_map (tx_inserts SO relevant) txs)) <= nsum (map (declared d) txs).
Proof. rewrite nsum_flat_map. apply nsum_le_pointwise. intros t Ht. apply tx_inserts_le_declared. exact Ht. Qed.

Lemma inserted_at k : (forall t, In t txs -> k <> marker_key SO t) ->
  ins_all (flat_map (tx_inserts SO relevant) txs) (s_coins s) !! k
  = match relevant !! k with Some c => Some c | None => s_coins s !! k end.
Proof.
  intros Hm.
  set (L := flat_map (tx_inserts SO relevant) txs).
  assert (Hall: forall v, In (k, v) L -> relevant !! k = Some v).
  { intros v HinL. apply in_flat_map in HinL as (t & Ht & HinL).
    apply in_tx_inserts in HinL as [(_ & Ek & _)|(i & o & _ & _ & Er)]; [destruct (Hm t Ht Ek)|exact Er]. }
  destruct (in_dec N.eq_dec k (map fst L)) as [Hi|Hi].
  - apply in_map_fst in Hi as [v Hi].
    rewrite (Hall v Hi). apply ins_all_key; [|exact Hi].
    intros v' Hv'. apply Hall in Hv'. rewrite (Hall v Hi) in Hv'. congruence.
  - rewrite ins_all_notin by exact Hi. destruct (relevant !! k) as [c|] eqn:Er; [|reflexivity].
    destruct (outputs_map s txs !! k) as [c'|] eqn:Eo.
    + (* an output of the batch that [relevant] knows is bound in L *)
      destruct Hi. rewrite outputs_map_ins_all in Eo.
      apply ins_all_Some in Eo as [Hc|[Eo _]]; [|rewrite lookup_empty in Eo; discriminate].
      destruct (in_created_key _ _ _ _ Hc) as (t & i & o & Ht & Hio & Ek).
      apply in_map_fst. exists c. apply in_flat_map. exists t. split; [exact Ht|].
      apply in_tx_inserts. right. exists i, o. auto.
    + (* otherwise [relevant] knows it only as an input read from the state *)
      destruct (in_dec N.eq_dec k (all_inputs txs)) as [Hk|Hk].
      * rewrite (relevant_input s _ _ k Hrel Hk), Eo in Er. exact Er.
      * rewrite (relevant_other s _ _ k Hrel Hk), Eo in Er. discriminate.
Qed.

Lemma inserted_at_input k :
  In k (all_inputs txs) -> ins_all (flat_map (tx_inserts SO relevant) txs) (s_coins s) !! k = relevant !! k.
Proof.
  intros Hk. rewrite inserted_at by (intros t Ht ->; exact (hk_marker_not_input SO s txs HK t Ht Hk)).
  destruct (relevant !! k) eqn:Er; [reflexivity|].
  rewrite (relevant_input s _ _ k Hrel Hk) in Er.
  destruct (outputs_map s txs !! k); [discriminate|exact Er].
Qed.
End Main.

Lemma in_sum_nsum relevant d ins :
  in_sum relevant d ins = nsum (map (fun i => vopt d (relevant !! input_key i)) ins).
Proof.
  induction ins as [|i ins IH]; cbn [in_sum fold_right map nsum]; [reflexivity|].
  fold (in_sum relevant d ins). rewrite IH.
  destruct (relevant !! input_key i) as [c|]; cbn [vopt]; [|lia].
  unfold val. rewrite (denom_eqb_sym d). destruct (denom_eqb _ d); lia.
Qed.

Lemma inputs_sum relevant d : forall txs,
  nsum (map (fun k => vopt d (relevant !! k)) (all_inputs txs)) = nsum (map (fun t => in_sum relevant d (t_inputs t)) txs).
Proof.
  induction txs as [|t txs IH]; cbn [all_inputs flat_map map nsum]; [reflexivity|].
  fold (all_inputs txs). rewrite map_app, nsum_app, IH, in_sum_nsum, map_map. reflexivity.
Qed.

Lemma sat_add128_le a b : sat_add128 a b <= a + b.
Proof. unfold sat_add128. lia. Qed.

Lemma fee_fold_le mult : forall txs fp tips fp' tips',
  fee_fold mult txs fp tips = Some (fp', tips') -> fp' + tips' <= fp + tips + nsum (map t_fee txs).
Proof.
  induction txs as [|t txs IH]; intros fp tips fp' tips' H; cbn [fee_fold] in H.
  - injection H as <- <-. cbn. lia.
  - destruct (min_fee mult t) as [mf| |]; try discriminate.
    destruct (N.ltb_spec (t_fee t) mf); [discriminate|].
    apply IH in H. cbn [map nsum].
    pose proof (sat_add128_le fp mf). pose proof (sat_add128_le tips (t_fee t - mf)). lia.
Qed.

Lemma fee_part_le d a b : a <= b -> fee_part d a <= fee_part d b.
Proof. unfold fee_part. destruct (denom_eqb d Mel); lia. Qed.
Lemma fee_part_add d a b : fee_part d (a + b) = fee_part d a + fee_part d b.
Proof. unfold fee_part. destruct (denom_eqb d Mel); lia. Qed.
Lemma fee_part_nsum d : forall l, fee_part d (nsum l) = nsum (map (fee_part d) l).
Proof.
  induction l as [|x l IH]; cbn [map nsum]; [unfold fee_part; destruct (denom_eqb d Mel); reflexivity|].
  rewrite fee_part_add, IH. reflexivity.
Qed.

(* C01 for a whole batch.  Of the hash-oracle assumptions the proof uses: the coin ids of the batch's outputs are
   pairwise distinct and new, and no faucet marker id is spent by the batch *)
Corollary accepted_batch_supply_hash txs s' :
  apply_tx_batch SO s lh txs = Ok s' -> HashOK SO s txs ->
  forall d, d <> NewCustom ->
  coin_supply d (s_coins s') + fee_part d (s_fee_pool s' + s_tips s')
  <= coin_supply d (s_coins s) + fee_part d (s_fee_pool s + s_tips s) + batch_issuance d txs.
Proof.
  intros H HK d Hd.
  destruct (accepted_batch_coins _ _ _ _ _ H) as (relevant & Hrel & Ec).
  pose proof (accepted_batch_fees _ _ _ _ _ H) as Hfee. apply fee_fold_le in Hfee.
  apply apply_tx_batch_ok in H as (rel' & n & [Hrel' Hall] & _). rewrite Hrel in Hrel'. injection Hrel' as <-.
  destruct (load_relevant_coins_spec _ _ _ Hrel) as (_ & Hnd & _).
  pose proof (batch_inserts_le_declared txs relevant Hrel HK d) as Hdecl.
  set (L := flat_map (tx_inserts SO relevant) txs) in *.
  pose proof (coin_supply_del_all d (all_inputs txs) (ins_all L (s_coins s)) Hnd) as Hdel.
  rewrite <- Ec in Hdel.
  assert (Ein: map (fun k => vopt d (ins_all L (s_coins s) !! k)) (all_inputs txs)
             = map (fun k => vopt d (relevant !! k)) (all_inputs txs)).
  { apply map_ext_in. intros k Hk. f_equal. exact (inserted_at_input txs relevant Hrel HK k Hk). }
  rewrite Ein, inputs_sum in Hdel.
  pose proof (coin_supply_ins_all_le d L (s_coins s)) as Hins.
  assert (Hcov: nsum (map (fun t => declared d t + fee_part d (t_fee t)) txs)
                <= nsum (map (fun t => in_sum relevant d (t_inputs t) + tx_issuance d t) txs)).
  { apply nsum_le_pointwise. intros t Ht. apply accepted_tx_covered with (ns := stake_fold s txs ∅); [apply (Hall t Ht)|exact Hd]. }
  rewrite !nsum_add_pointwise in Hcov.
  apply (fee_part_le d) in Hfee. rewrite !fee_part_add, fee_part_nsum, map_map in Hfee.
  rewrite !fee_part_add. unfold batch_issuance. lia.
Qed.

(* the pools are not touched by a batch, so the inequality is about the whole state *)
Corollary accepted_batch_pools txs s' : apply_tx_batch SO s lh txs = Ok s' -> s_pools s' = s_pools s.
Proof. intros H. destruct (apply_tx_batch_frame _ _ _ _ _ H) as (_ & _ & _ & E & _). exact E. Qed.
End Batch.
