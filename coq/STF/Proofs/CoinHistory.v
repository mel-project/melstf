(* C02 over whole histories, "no lost coin": an unspent coin stays in the coin tree, unchanged, through every
   batch that does not list it as an input and every block boundary at which it is not an output of a pool
   request being settled; and "no double spend", one step of it: an accepted batch that lists it removes it
   ([batch_spends_coin]; that no later transaction re-creates it is not shown here). *)
From MelVerif Require Import STF.Proofs.Tactics STF.Proofs.MapLemmas STF.Proofs.Coins STF.Proofs.SealCoins
  STF.Proofs.HashFacts STF.Proofs.History.
From Coq Require Import ZifyN ZifyNat ZifyBool.
Open Scope N_scope.

Section CoinHistory.
Variable SO : stf_oracle.
Variable h : N.            (* hash of the transaction that created the coin *)
Variable i : N.            (* its output index *)
Hypothesis Hi : i < 256.
Variable c : cdh.

Definition Has (s : wstate) : Prop := s_coins s !! coin_key h i = Some c.

Lemma batch_keeps_coin s lh txs s' :
  apply_tx_batch SO s lh txs = Ok s' -> HashOK SO s txs ->
  ~ In (coin_key h i) (all_inputs txs) ->
  (forall t, In t txs -> so_faucet_marker SO (t_hash t) <> h) ->
  Has s -> Has s'.
Proof.
  intros H HK Hni Hm Hc. unfold Has.
  rewrite (batch_coin_at SO s lh txs s' H h i Hi (fresh_hash_ne SO s txs HK h i c Hi Hc) (fun t Ht _ => Hm t Ht)).
  rewrite del_all_notin by exact Hni. exact Hc.
Qed.

Lemma batch_spends_coin s lh txs s' :
  apply_tx_batch SO s lh txs = Ok s' -> In (coin_key h i) (all_inputs txs) -> s_coins s' !! coin_key h i = None.
Proof.
  intros H Hin. destruct (accepted_batch_coins _ _ _ _ _ H) as (relevant & Hrel & Ec). rewrite Ec.
  apply del_all_in. exact Hin.
Qed.

Lemma block_keeps_coin s a hdr s' :
  seal SO s a = Ok s' ->
  (forall t, In t (sorted_txs s) -> is_pool_request t = true -> t_hash t <> h) ->
  so_reward_id SO (s_height s) <> h ->
  Has s -> Has (next_unsealed s' hdr).
Proof. intros H Hreq Hrw Hc. unfold Has. rewrite (block_coin_at SO s a hdr s' h i Hi H Hreq Hrw). exact Hc. Qed.

Definition coin_step_ok (s : wstate) (o : hop) : Prop :=
  match o with
  | HBatch lh txs => HashOK SO s txs /\ ~ In (coin_key h i) (all_inputs txs) /\
      (forall t, In t txs -> so_faucet_marker SO (t_hash t) <> h)
  | HBlock a hdr =>
      (forall t, In t (sorted_txs s) -> is_pool_request t = true -> t_hash t <> h) /\
      so_reward_id SO (s_height s) <> h
  end.

Theorem unspent_coin_is_never_lost : forall ops s,
  Has s -> hist_all SO coin_step_ok s ops -> Has (fold_left (hstep SO) ops s).
Proof.
  apply (history_invariant_cases SO Has coin_step_ok).
  - intros s lh txs s' Hc (HK & Hni & Hm) E. exact (batch_keeps_coin s lh txs s' E HK Hni Hm Hc).
  - intros s a hdr s' Hc (Hreq & Hrw) E. exact (block_keeps_coin s a hdr s' E Hreq Hrw Hc).
Qed.

(* the definitions, spelled out for the property files *)
Lemma has_def s : Has s <-> s_coins s !! coin_key h i = Some c.
Proof. reflexivity. Qed.
Lemma coin_step_ok_def s o :
  coin_step_ok s o <->
  match o with
  | HBatch lh txs => HashOK SO s txs /\ ~ In (coin_key h i) (all_inputs txs) /\
      (forall t, In t txs -> so_faucet_marker SO (t_hash t) <> h)
  | HBlock a hdr =>
      (forall t, In t (sorted_txs s) -> is_pool_request t = true -> t_hash t <> h) /\
      so_reward_id SO (s_height s) <> h
  end.
Proof. destruct o; reflexivity. Qed.
End CoinHistory.
