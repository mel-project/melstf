(* C05: minimum fee, fee pool / tips accounting, proposer reward.  Also the second pass of a batch in closed form
   ([spend_all_ok]: all inputs removed, [fee_fold], the transactions filed under [tx_bindings]) and with it
   create_next_state as a whole ([create_next_state_ok]). *)
From MelVerif Require Import STF.Proofs.Tactics STF.Proofs.MapLemmas STF.Proofs.Stakes.
Open Scope N_scope.

(* weight = serialized size + covenant weights + 1000 per output - 1000 per input, never below zero;
   an undecodable covenant weighs 0 *)
Theorem tx_weight_formula t w :
  tx_weight t = Ok w ->
  exists sw, sum128 (map cov_weight (t_covenants t)) = Ok sw /\
  w = sat_sub128 (sat_add128 (sat_add128 (t_rawlen t) sw) (N.of_nat (length (t_outputs t)) * 1000))
                 (N.of_nat (length (t_inputs t)) * 1000).
Proof. unfold tx_weight. intros H. inv_bind H as sw Hsw. injection H as <-. eauto. Qed.

Theorem cov_weight_undecodable b : decode_all b = None -> cov_weight b = 0.
Proof. unfold cov_weight. intros ->. reflexivity. Qed.

Theorem min_fee_formula mult t mf :
  min_fee mult t = Ok mf -> exists w, tx_weight t = Ok w /\ mf = sat_mul128 w mult / 65536.
Proof. unfold min_fee. intros H. inv_bind H as w Hw. injection H as <-. eauto. Qed.

Lemma spend_and_pay_underpaid tip t n mf :
  min_fee (s_fee_mult n) t = Ok mf -> t_fee t < mf ->
  forall n', spend_and_pay tip t n <> Ok n'.
Proof.
  intros Hmf Hlt n' H. apply spend_and_pay_ok in H as (cn & mf' & _ & Hmf' & Hle & _).
  rewrite Hmf in Hmf'. injection Hmf' as <-. lia.
Qed.

(* what spend_all does to (fee pool, tips); None if some transaction has no minimum fee or pays less *)
Fixpoint fee_fold (mult : N) (txs : list tx) (fp tips : N) : option (N * N) :=
  match txs with
  | [] => Some (fp, tips)
  | t :: r =>
    match min_fee mult t with
    | Ok mf => if t_fee t <? mf then None else fee_fold mult r (sat_add128 fp mf) (sat_add128 tips (t_fee t - mf))
    | _ => None
    end
  end.

Definition tx_bindings (txs : list tx) : list (N * tx) := map (fun t => (t_hash t, t)) txs.

Lemma in_tx_bindings txs h t : In (h, t) (tx_bindings txs) <-> In t txs /\ t_hash t = h.
Proof.
  unfold tx_bindings. rewrite in_map_iff. split.
  - intros (t0 & E & Ht0). injection E as <- <-. auto.
  - intros [Ht <-]. eauto.
Qed.

Lemma remove_coins_app tip a : forall b cn,
  remove_coins tip (a ++ b) cn = (c <- remove_coins tip a cn ;; remove_coins tip b c).
Proof.
  induction a as [|k a IH]; intros b cn; cbn [app remove_coins obind]; [reflexivity|].
  destruct (remove_coin tip k cn); cbn [obind]; [apply IH|reflexivity|reflexivity].
Qed.

Lemma spend_all_ok tip : forall txs n n',
  spend_all tip txs n = Ok n' <->
  exists cn fp tp, remove_coins tip (all_inputs txs) (s_coins n, s_counts n) = Ok cn /\
    fee_fold (s_fee_mult n) txs (s_fee_pool n) (s_tips n) = Some (fp, tp) /\
    n' = set_txs (set_fees (set_coins n (fst cn) (snd cn)) fp tp) (ins_all (tx_bindings txs) (s_txs n)).
Proof.
  induction txs as [|t r IH]; intros n n'; cbn [spend_all].
  - split.
    + intros H. injection H as <-. exists (s_coins n, s_counts n), (s_fee_pool n), (s_tips n). destruct n. auto.
    + intros (cn & fp & tp & Hcn & Hf & ->). injection Hcn as <-. injection Hf as <- <-. destruct n. reflexivity.
  - unfold all_inputs. cbn [flat_map fee_fold]. fold (all_inputs r). split.
    + intros H. inv_bind H as n1 H1. apply spend_and_pay_ok in H1 as ([c1 k1] & mf & Hcn1 & Hmf & Hle & ->).
      apply IH in H as (cn & fp & tp & Hcn & Hf & ->). exists cn, fp, tp.
      rewrite remove_coins_app, Hcn1, Hmf. destruct (N.ltb_spec (t_fee t) mf); [lia|]. auto.
    + intros (cn & fp & tp & Hcn & Hf & ->). rewrite remove_coins_app in Hcn. inv_bind Hcn as cn1 Hcn1.
      destruct (min_fee (s_fee_mult n) t) as [mf| |] eqn:Hmf; try discriminate.
      destruct (N.ltb_spec (t_fee t) mf); [discriminate|].
      apply obind_ok_iff. eexists. split; [apply spend_and_pay_ok; exists cn1, mf; auto|].
      apply IH. exists cn, fp, tp. destruct cn1. auto.
Qed.

Lemma create_next_state_ok SO s rel tip txs n n' :
  create_next_state SO s rel tip txs n = Ok n' <->
  exists cn cn' fp tp, insert_all SO s rel tip txs (s_coins n, s_counts n) = Ok cn /\
    remove_coins tip (all_inputs txs) cn = Ok cn' /\
    fee_fold (s_fee_mult n) txs (s_fee_pool n) (s_tips n) = Some (fp, tp) /\
    n' = set_txs (set_fees (set_coins n (fst cn') (snd cn')) fp tp) (ins_all (tx_bindings txs) (s_txs n)).
Proof.
  unfold create_next_state. split.
  - intros H. inv_bind H as cn Hcn. destruct cn as [c k].
    apply spend_all_ok in H as (cn' & fp & tp & H). exists (c, k), cn', fp, tp. auto.
  - intros ([c k] & cn' & fp & tp & -> & H). cbn [obind]. apply spend_all_ok. eauto.
Qed.

Lemma insert_all_fees SO s relevant tip : forall txs cn cn',
  insert_all SO s relevant tip txs cn = Ok cn' -> True.
Proof. trivial. Qed.

Theorem accepted_batch_fees SO s lh txs s' :
  apply_tx_batch SO s lh txs = Ok s' ->
  fee_fold (s_fee_mult s) txs (s_fee_pool s) (s_tips s) = Some (s_fee_pool s', s_tips s').
Proof.
  intros H. apply apply_tx_batch_ok in H as (rel & n & _ & Hn & ->).
  apply create_next_state_ok in Hn as (cn & cn' & fp & tp & _ & _ & Hf & ->). exact Hf.
Qed.

Lemma accepted_batch_txs SO s lh txs s' :
  apply_tx_batch SO s lh txs = Ok s' -> s_txs s' = ins_all (tx_bindings txs) (s_txs s).
Proof.
  intros H. apply apply_tx_batch_ok in H as (rel & n & _ & Hn & ->).
  apply create_next_state_ok in Hn as (cn & cn' & fp & tp & _ & _ & _ & ->). reflexivity.
Qed.

Lemma fee_fold_each mult : forall txs fp tips r,
  fee_fold mult txs fp tips = Some r ->
  forall t, In t txs -> exists mf, min_fee mult t = Ok mf /\ mf <= t_fee t.
Proof.
  induction txs as [|t0 r0 IH]; intros fp tips r H t Hin; [contradiction|].
  cbn [fee_fold] in H. destruct (min_fee mult t0) as [mf| |] eqn:E; try discriminate.
  destruct (N.ltb_spec (t_fee t0) mf); [discriminate|].
  destruct Hin as [<-|Hin]; [eauto|]. eapply IH; eauto.
Qed.

Theorem accepted_batch_min_fee SO s lh txs s' :
  apply_tx_batch SO s lh txs = Ok s' ->
  forall t, In t txs -> exists mf, min_fee (s_fee_mult s) t = Ok mf /\ mf <= t_fee t.
Proof. intros H. eapply fee_fold_each. eapply accepted_batch_fees; eauto. Qed.

(* proposer reward: one coin worth fee_pool/65536 + tips; the fee pool and the tips drop by exactly that *)
Theorem collect_proposer_fee_spec SO s a s' :
  collect_proposer_fee SO s a = Ok s' ->
  s_coins s' !! coin_key (so_reward_id SO (s_height s)) 0
    = Some {| c_data := {| cd_covhash := a_dest a; cd_value := s_fee_pool s / 65536 + s_tips s;
                           cd_denom := Mel; cd_extra := [] |}; c_height := s_height s |} /\
  s_fee_pool s' = s_fee_pool s - s_fee_pool s / 65536 /\ s_tips s' = 0 /\
  (forall k, k <> coin_key (so_reward_id SO (s_height s)) 0 -> s_coins s' !! k = s_coins s !! k).
Proof.
  unfold collect_proposer_fee. intros H. inv_bind H as v Hv. injection H as <-.
  unfold add128 in Hv. destruct (_ <? U128); [|discriminate]. injection Hv as <-.
  unfold put_coin, insert_coin. cbn.
  split; [apply lookup_insert|]. split; [reflexivity|]. split; [reflexivity|].
  intros k Hk. apply lookup_insert_ne. congruence.
Qed.
