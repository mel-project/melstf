(* C01 / C15 / C16 at sealing, one pool and one phase at a time: what the coins and the pool's reserves hold of a
   denomination together never grows (the reserves take in what the requests hand in and give up at least what the
   requests are paid), and liquidity tokens are minted / burnt against the recorded liquidity. *)
From MelVerif Require Import STF.Proofs.Tactics STF.Proofs.MapLemmas STF.Proofs.SealSteps STF.Proofs.Frame
  STF.Proofs.Supply STF.Proofs.Pool STF.Proofs.SealCoins STF.Proofs.Perm STF.Proofs.BatchSupply.
From Coq Require Import ZifyN ZifyNat ZifyBool.
Open Scope N_scope.

Lemma coin_supply_remove d k (m : gmap N cdh) : coin_supply d (delete k m) + vopt d (m !! k) = coin_supply d m.
Proof.
  destruct (m !! k) as [c|] eqn:E; cbn [vopt].
  - symmetry. apply coin_supply_delete, E.
  - rewrite delete_notin by exact E. lia.
Qed.

Lemma coin_supply_overwrite d k c (m : gmap N cdh) :
  coin_supply d (<[k := c]> m) + vopt d (m !! k) = coin_supply d m + val d c.
Proof.
  rewrite <- (insert_delete_insert m k c), coin_supply_insert_fresh by apply lookup_delete.
  fold (val d c). pose proof (coin_supply_remove d k m). lia.
Qed.

Lemma coin_supply_ins_all_exact d : forall (L : list (N * cdh)) m, NoDup (map fst L) ->
  coin_supply d (ins_all L m) + nsum (map (fun kv => vopt d (m !! fst kv)) L)
  = coin_supply d m + nsum (map (fun kv => val d (snd kv)) L).
Proof.
  induction L as [|[k c] L IH]; intros m Hnd; cbn [ins_all fold_left map nsum fst snd]; [lia|].
  fold (ins_all L (<[k := c]> m)).
  cbn [map fst] in Hnd. apply NoDup_cons_iff in Hnd as [Hni Hnd].
  specialize (IH (<[k := c]> m) Hnd).
  assert (E: map (fun kv => vopt d (<[k := c]> m !! fst kv)) L = map (fun kv => vopt d (m !! fst kv)) L).
  { apply map_ext_in. intros [k' c'] Hin. cbn [fst]. rewrite lookup_insert_ne; [reflexivity|].
    intros ->. apply Hni. apply (in_map fst) in Hin. exact Hin. }
  rewrite E in IH. pose proof (coin_supply_overwrite d k c m). lia.
Qed.

Lemma fold_right_nsum (l : list N) : fold_right N.add 0 l = nsum l.
Proof. induction l as [|x l IH]; cbn [fold_right nsum]; [reflexivity|rewrite IH; reflexivity]. Qed.
Lemma sat_sum_eq l : sat_sum l = N.min (nsum l) MAX128.
Proof. unfold sat_sum. rewrite sat_add_fold_closed by apply N.le_0_l. rewrite fold_right_nsum. reflexivity. Qed.
Lemma sat_sum_nsum l : nsum l < U128 -> sat_sum l = nsum l.
Proof. intros H%MAX128_lt. rewrite sat_sum_eq. lia. Qed.
Lemma sat_sum_le l : sat_sum l <= nsum l.
Proof. rewrite sat_sum_eq. apply N.le_min_l. Qed.
Lemma sat_sum_max l : sat_sum l <= MAX128.
Proof. rewrite sat_sum_eq. apply N.le_min_r. Qed.

(* amounts on the two sides of a pool, seen from one denomination *)
Definition on_side (d : denom) (k : denom * denom) (x y : N) : N :=
  (if denom_eqb d (fst k) then x else 0) + (if denom_eqb d (snd k) then y else 0).

Definition side (d : denom) (k : denom * denom) (p : pool) : N :=
  (if denom_eqb d (fst k) then p_lefts p else 0) + (if denom_eqb d (snd k) then p_rights p else 0).

Lemma side_on_side d k p : side d k p = on_side d k (p_lefts p) (p_rights p).
Proof. reflexivity. Qed.

Lemma on_side_add d k x y x' y' : on_side d k (x + x') (y + y') = on_side d k x y + on_side d k x' y'.
Proof. unfold on_side. destruct (denom_eqb d (fst k)), (denom_eqb d (snd k)); lia. Qed.
Lemma on_side_le d k x y x' y' : x <= x' -> y <= y' -> on_side d k x y <= on_side d k x' y'.
Proof. unfold on_side. destruct (denom_eqb d (fst k)), (denom_eqb d (snd k)); lia. Qed.
Lemma on_side_other d k x y : d <> fst k -> d <> snd k -> on_side d k x y = 0.
Proof.
  intros H1 H2. unfold on_side.
  destruct (denom_eqb d (fst k)) eqn:E1; [apply denom_eqb_eq in E1; contradiction|].
  destruct (denom_eqb d (snd k)) eqn:E2; [apply denom_eqb_eq in E2; contradiction|]. reflexivity.
Qed.
Lemma on_side_fst d k v y : (if denom_eqb (fst k) d then v else 0) <= on_side d k v y.
Proof. unfold on_side. rewrite (denom_eqb_sym (fst k) d). lia. Qed.
Lemma on_side_snd d k x v : (if denom_eqb (snd k) d then v else 0) <= on_side d k x v.
Proof. unfold on_side. rewrite (denom_eqb_sym (snd k) d). lia. Qed.

Lemma nsum_on_side {A} d k (f g : A -> N) : forall l,
  nsum (map (fun t => on_side d k (f t) (g t)) l) = on_side d k (nsum (map f l)) (nsum (map g l)).
Proof.
  induction l as [|t l IH]; cbn [map nsum]; [|rewrite IH, on_side_add; reflexivity].
  unfold on_side. destruct (denom_eqb d (fst k)), (denom_eqb d (snd k)); reflexivity.
Qed.

Lemma prorata_on_side {A} d k x y T T' (f g : A -> N) l :
  x < U128 -> y < U128 -> nsum (map f l) <= T -> nsum (map g l) <= T' ->
  nsum (map (fun t => on_side d k (multiply_ratio x (f t) T) (multiply_ratio y (g t) T')) l) <= on_side d k x y.
Proof.
  intros Hx Hy Hf Hg. rewrite nsum_on_side.
  rewrite <- (map_map f (fun v => multiply_ratio x v T)), <- (map_map g (fun v => multiply_ratio y v T')).
  apply on_side_le; apply prorata_sum_le; assumption.
Qed.

Definition declared0 (s : wstate) (t : tx) : Prop :=
  exists c, s_coins s !! key0 t = Some c /\ cd_denom (c_data c) = cd_denom (out0 t) /\ cd_value (c_data c) = cd_value (out0 t).
Definition declared1 (s : wstate) (t : tx) : Prop :=
  exists c, s_coins s !! key1 t = Some c /\ cd_denom (c_data c) = cd_denom (out1 t) /\ cd_value (c_data c) = cd_value (out1 t).

Lemma declared0_vopt s t d : declared0 s t ->
  vopt d (s_coins s !! key0 t) = if denom_eqb (cd_denom (out0 t)) d then cd_value (out0 t) else 0.
Proof. intros (c & -> & <- & <-). reflexivity. Qed.
Lemma declared1_vopt s t d : declared1 s t ->
  vopt d (s_coins s !! key1 t) = if denom_eqb (cd_denom (out1 t)) d then cd_value (out1 t) else 0.
Proof. intros (c & -> & <- & <-). reflexivity. Qed.

Definition key_pairs (l : list tx) : list N := flat_map (fun t => [key0 t; key1 t]) l.

Lemma in_key_pairs t l : In t l -> In (key0 t) (key_pairs l) /\ In (key1 t) (key_pairs l).
Proof. intros Ht. split; apply in_flat_map; exists t; (split; [exact Ht|cbn; auto]). Qed.

Lemma untouched_key_pairs l key : untouched_by l key <-> ~ In key (key_pairs l).
Proof.
  unfold key_pairs, key0, key1. rewrite in_flat_map. split.
  - intros U (t & Ht & [E|[E|[]]]); destruct (U t Ht); congruence.
  - intros H t Ht. split; intros ->; apply H; exists t; (split; [exact Ht|cbn; auto]).
Qed.

Section Swaps.
Variable k : denom * denom.
Hypothesis Hsides : fst k <> snd k.

Definition swap_coin (lw rw tl tr h : N) (t : tx) : cdh :=
  let o := out0 t in
  let nv := if denom_eqb (cd_denom o) (fst k)
            then (snd k, N.min (multiply_ratio rw (cd_value o) tl) MAX_COINVAL)
            else (fst k, N.min (multiply_ratio lw (cd_value o) tr) MAX_COINVAL) in
  {| c_data := {| cd_covhash := cd_covhash o; cd_value := snd nv; cd_denom := fst nv; cd_extra := cd_extra o |};
     c_height := h |}.

Lemma swaps_go_coins lw rw tl tr : forall l s,
  s_coins (swaps_go k lw rw tl tr l s) = ins_all (map (fun t => (key0 t, swap_coin lw rw tl tr (s_height s) t)) l) (s_coins s).
Proof.
  induction l as [|t l IH]; intros s; cbn [swaps_go map ins_all fold_left]; [reflexivity|].
  rewrite IH, coins_put_coin_eq. reflexivity.
Qed.

Definition gives (d : denom) (t : tx) : N := if denom_eqb (cd_denom (out0 t)) d then cd_value (out0 t) else 0.

Lemma swap_total_exact d l : nsum (map (fun t => cd_value (out0 t)) l) < U128 -> swap_total d l = nsum (map (gives d) l).
Proof.
  intros H. apply sat_sum_nsum. eapply N.le_lt_trans; [|exact H].
  apply nsum_le_pointwise. intros t _. unfold gives. destruct (denom_eqb _ d); lia.
Qed.

Lemma denom_eqb_sides : denom_eqb (fst k) (snd k) = false.
Proof using Hsides. apply not_true_iff_false. intros E%denom_eqb_eq. contradiction. Qed.

Lemma gives_on_side d t : cd_denom (out0 t) = fst k \/ cd_denom (out0 t) = snd k ->
  gives d t = on_side d k (gives (fst k) t) (gives (snd k) t).
Proof using Hsides.
  unfold gives, on_side. intros [-> | ->]; rewrite denom_eqb_refl.
  - rewrite denom_eqb_sides, (denom_eqb_sym (fst k) d). destruct (denom_eqb d (fst k)), (denom_eqb d (snd k)); lia.
  - rewrite (denom_eqb_sym (snd k) (fst k)), denom_eqb_sides, (denom_eqb_sym (snd k) d).
    destruct (denom_eqb d (fst k)), (denom_eqb d (snd k)); lia.
Qed.

Lemma swap_coin_val d lw rw tl tr h t : cd_denom (out0 t) = fst k \/ cd_denom (out0 t) = snd k ->
  val d (swap_coin lw rw tl tr h t)
  <= on_side d k (multiply_ratio lw (gives (snd k) t) tr) (multiply_ratio rw (gives (fst k) t) tl).
Proof using Hsides.
  unfold val, swap_coin, gives. cbn [c_data cd_denom cd_value]. intros [-> | ->]; rewrite denom_eqb_refl.
  - cbn [fst snd]. etransitivity; [|apply on_side_snd]. destruct (denom_eqb (snd k) d); lia.
  - rewrite (denom_eqb_sym (snd k) (fst k)), denom_eqb_sides. cbn [fst snd].
    etransitivity; [|apply on_side_fst]. destruct (denom_eqb (fst k) d); lia.
Qed.

Theorem swaps_single_pool_conserves s swaps s' :
  swaps_single_pool k s swaps = Ok s' ->
  NoDup (map key0 swaps) ->
  (forall t, In t swaps -> declared0 s t /\ (cd_denom (out0 t) = fst k \/ cd_denom (out0 t) = snd k)) ->
  nsum (map (fun t => cd_value (out0 t)) swaps) < U128 ->
  exists p p', get_pool s k = Some p /\ s_pools s' = <[poolkey_code k := p']> (s_pools s) /\
    p_liqs p' = p_liqs p /\
    forall d, coin_supply d (s_coins s') + side d k p' <= coin_supply d (s_coins s) + side d k p.
Proof using Hsides.
  intros (p & p' & lw & rw & Ep & Hr & ->)%swaps_single_pool_inv Hnd Hdecl Hsum.
  rewrite !(swap_total_exact _ _ Hsum) in *.
  set (tl := nsum (map (gives (fst k)) swaps)) in *. set (tr := nsum (map (gives (snd k)) swaps)) in *.
  pose proof (swaps_go_coins lw rw tl tr swaps s) as Ec.
  destruct (swaps_go_rewrites k lw rw tl tr swaps s) as (_ & Epl & _).
  apply swap_many_inv in Hr as (Elw & Erw & Hlw & Hrw & _ & EL & ER & Eq).
  exists p, p'. split; [exact Ep|]. split; [cbn [s_pools put_pool set_pools]; rewrite Epl; reflexivity|].
  split; [exact Eq|]. intros d. cbn [s_coins put_pool set_pools]. rewrite Ec.
  pose proof (coin_supply_ins_all_exact d (map (fun t => (key0 t, swap_coin lw rw tl tr (s_height s) t)) swaps) (s_coins s)) as Hex.
  rewrite !map_map in Hex. cbn [fst snd] in Hex. specialize (Hex Hnd).
  (* the coins taken are what the requests give ... *)
  assert (Hold: nsum (map (fun t => vopt d (s_coins s !! key0 t)) swaps) = on_side d k tl tr).
  { unfold tl, tr. rewrite <- nsum_on_side. f_equal. apply map_ext_in. intros t Ht. destruct (Hdecl t Ht) as [D0 Hden].
    rewrite (declared0_vopt _ _ _ D0). apply gives_on_side, Hden. }
  (* ... the coins paid are shares of the two payouts *)
  assert (Hnew: nsum (map (fun t => val d (swap_coin lw rw tl tr (s_height s) t)) swaps) <= on_side d k lw rw).
  { etransitivity; [apply nsum_le_pointwise; intros t Ht; apply swap_coin_val, Hdecl, Ht|].
    apply prorata_on_side; [rewrite Elw|rewrite Erw|..]; try apply to_u128_sat_lt; reflexivity. }
  (* and the reserves took in the totals (at most, under saturation) and paid the payouts *)
  rewrite !side_on_side, EL, ER.
  pose proof (on_side_add d k (sat_add128 (p_lefts p) tl - lw) (sat_add128 (p_rights p) tr - rw) lw rw) as A1.
  rewrite !N.sub_add in A1 by lia.
  pose proof (on_side_le d k _ _ _ _ (sat_add128_le (p_lefts p) tl) (sat_add128_le (p_rights p) tr)) as A2.
  rewrite on_side_add in A2. lia.
Qed.
End Swaps.

Section Withdrawals.
Variable SO : stf_oracle.
Variable k : denom * denom.
Hypothesis Hsides : fst k <> snd k.
Let LD : denom := Custom (so_liq_denom SO (poolkey_code k)).
Hypothesis HLD1 : LD <> fst k.
Hypothesis HLD2 : LD <> snd k.

Definition wd_coin (d : denom) (x total h : N) (t : tx) : cdh :=
  let o := out0 t in
  {| c_data := {| cd_covhash := cd_covhash o; cd_value := multiply_ratio x (cd_value o) total; cd_denom := d; cd_extra := cd_extra o |};
     c_height := h |}.

Lemma withdrawals_go_coins tleft tright total : forall l s,
  s_coins (withdrawals_go k tleft tright total l s)
  = ins_all (flat_map (fun t => [(key0 t, wd_coin (fst k) tleft total (s_height s) t);
                                 (key1 t, wd_coin (snd k) tright total (s_height s) t)]) l) (s_coins s).
Proof.
  induction l as [|t l IH]; intros s; cbn [withdrawals_go flat_map]; [reflexivity|].
  rewrite IH, !coins_put_coin_eq. reflexivity.
Qed.

Theorem withdrawals_single_pool_conserves s ws s' p :
  withdrawals_single_pool k s ws = Ok s' ->
  get_pool s k = Some p -> p_lefts p < U128 -> p_rights p < U128 ->
  NoDup (flat_map (fun t => [key0 t; key1 t]) ws) ->
  (forall t, In t ws -> declared0 s t /\ cd_denom (out0 t) = LD) ->
  nsum (map (fun t => cd_value (out0 t)) ws) < U128 ->
  exists p', ((s' = s /\ p' = p) \/ s_pools s' = <[poolkey_code k := p']> (s_pools s)) /\
    (forall d, d <> LD -> coin_supply d (s_coins s') + side d k p' <= coin_supply d (s_coins s) + side d k p) /\
    coin_supply LD (s_coins s') + p_liqs p <= coin_supply LD (s_coins s) + p_liqs p'.
Proof using HLD1 HLD2.
  intros (p0 & Ep0 & H)%withdrawals_single_pool_inv Ep HpL HpR Hnd Hdecl Hsum.
  rewrite Ep in Ep0. injection Ep0 as <-. rewrite (sat_sum_nsum _ Hsum) in H.
  set (total := nsum (map (fun t => cd_value (out0 t)) ws)) in *.
  destruct ((p_liqs p =? 0) || (p_liqs p <? total)) eqn:Eg.
  { subst s'. exists p. split; [left; auto|]. split; [intros; lia|lia]. }
  apply orb_false_iff in Eg as [Eg1%N.eqb_neq Eg2%N.ltb_ge]. destruct H as (p' & a & b & Hw & ->).
  destruct (pool_withdraw_spec p total Eg2 ltac:(lia)) as (p2 & a2 & b2 & Hw2 & El & EL & ER & HaL & HbR & _).
  rewrite Hw in Hw2. injection Hw2 as <- <- <-.
  pose proof (withdrawals_go_coins a b total ws (put_pool s k p')) as Ec.
  destruct (withdrawals_go_rewrites k a b total ws (put_pool s k p')) as (_ & Epl & _).
  exists p'. split; [right; rewrite Epl; reflexivity|]. rewrite Ec. cbn [s_coins s_height put_pool set_pools].
  set (Lst := flat_map (fun t => [(key0 t, wd_coin (fst k) a total (s_height s) t); (key1 t, wd_coin (snd k) b total (s_height s) t)]) ws).
  assert (HndL: NoDup (map fst Lst)).
  { unfold Lst. rewrite flat_map_concat_map, concat_map, map_map, <- flat_map_concat_map. exact Hnd. }
  (* each request is paid its share of a on the left and of b on the right *)
  assert (Hnew: forall d, nsum (map (fun kv => val d (snd kv)) Lst) <= on_side d k a b).
  { intros d. unfold Lst. rewrite nsum_flat_map. cbn [map nsum snd].
    etransitivity; [|apply (prorata_on_side d k a b total total (fun t => cd_value (out0 t)) (fun t => cd_value (out0 t)) ws); lia].
    apply nsum_le_pointwise. intros t _. unfold val, wd_coin, on_side. cbn [c_data cd_denom cd_value].
    rewrite (denom_eqb_sym (fst k) d), (denom_eqb_sym (snd k) d). lia. }
  (* and hands in liquidity tokens worth what it asks to burn *)
  assert (Hold: total <= nsum (map (fun kv => vopt LD (s_coins s !! fst kv)) Lst)).
  { unfold Lst. rewrite nsum_flat_map. apply nsum_le_pointwise. intros t Ht. cbn [map nsum fst].
    destruct (Hdecl t Ht) as [D0 ELD]. rewrite (declared0_vopt _ _ _ D0), ELD, denom_eqb_refl. lia. }
  split.
  - intros d Hd. pose proof (coin_supply_ins_all_exact d Lst (s_coins s) HndL) as Hex. specialize (Hnew d).
    pose proof (on_side_add d k (p_lefts p - a) (p_rights p - b) a b) as A. rewrite !N.sub_add in A by assumption.
    rewrite !side_on_side, EL, ER. lia.
  - pose proof (coin_supply_ins_all_exact LD Lst (s_coins s) HndL) as Hex. specialize (Hnew LD).
    rewrite (on_side_other LD k a b HLD1 HLD2) in Hnew. lia.
Qed.
End Withdrawals.

Section Deposits.
Variable SO : stf_oracle.
Variable k : denom * denom.
Hypothesis Hsides : fst k <> snd k.
Let LD : denom := Custom (so_liq_denom SO (poolkey_code k)).
Hypothesis HLD1 : LD <> fst k.
Hypothesis HLD2 : LD <> snd k.

Definition my_of (t : tx) : N := sat_mul128 (N.sqrt (cd_value (out0 t))) (N.sqrt (cd_value (out1 t))).

Lemma deposits_go_supply tl tm d : forall l left s s',
  deposits_go SO k tl tm l left s = Ok s' ->
  legacy_net s && (s_height s <? 978392) = false ->
  NoDup (key_pairs l) ->
  coin_supply d (s_coins s') + nsum (map (fun t => vopt d (s_coins s !! key0 t) + vopt d (s_coins s !! key1 t)) l)
  = coin_supply d (s_coins s) + (if denom_eqb LD d then nsum (clamped_shares tl tm (map my_of l) left) else 0).
Proof.
  induction l as [|t l IH]; intros left s s' H Hleg Hnd; cbn [deposits_go] in H.
  - injection H as <-. cbn [map nsum clamped_shares]. destruct (denom_eqb LD d); lia.
  - rewrite Hleg in H. inv_bind H as s2 H2. apply del_coin_inv in H2 as [counts ->].
    cbn [key_pairs flat_map app] in Hnd. apply NoDup_cons_iff in Hnd as [N1 Hnd]. apply NoDup_cons_iff in Hnd as [N2 Hnd].
    fold (key_pairs l) in N1, N2, Hnd.
    pose proof (IH _ _ _ H Hleg Hnd) as IHs.
    cbn [s_coins set_coins] in IHs. rewrite coins_put_coin_eq in IHs.
    fold (my_of t) (key0 t) (key1 t) in IHs |- *.
    set (v := N.min (multiply_ratio tl (my_of t) tm) left) in *.
    cbn [map nsum clamped_shares]. fold v.
    match type of IHs with context [<[_ := ?c]> _] => set (c0 := c) in * end.
    (* the outputs of the remaining requests are not affected by this step *)
    assert (E: map (fun t0 => vopt d (delete (key1 t) (<[key0 t := c0]> (s_coins s)) !! key0 t0)
                              + vopt d (delete (key1 t) (<[key0 t := c0]> (s_coins s)) !! key1 t0)) l
             = map (fun t0 => vopt d (s_coins s !! key0 t0) + vopt d (s_coins s !! key1 t0)) l).
    { apply map_ext_in. intros t0 [I0 I1]%in_key_pairs.
      rewrite !lookup_delete_ne, !lookup_insert_ne; [reflexivity|intros E..]; rewrite E in *; auto using in_cons. }
    rewrite E in IHs.
    (* this step: output 0 becomes the share v of liquidity tokens, output 1 goes *)
    pose proof (coin_supply_overwrite d (key0 t) c0 (s_coins s)) as O1.
    pose proof (coin_supply_remove d (key1 t) (<[key0 t := c0]> (s_coins s))) as O2.
    rewrite lookup_insert_ne in O2 by (intros E0; apply N1; left; symmetry; exact E0).
    change (val d c0) with (if denom_eqb LD d then v else 0) in O1. destruct (denom_eqb LD d); lia.
Qed.

Theorem deposits_single_pool_conserves s deps s' :
  deposits_single_pool SO k s deps = Ok s' ->
  legacy_net s && (s_height s <? 978392) = false ->
  NoDup (key_pairs deps) ->
  (forall t, In t deps -> declared0 s t /\ declared1 s t /\ cd_denom (out0 t) = fst k /\ cd_denom (out1 t) = snd k) ->
  nsum (map (fun t => cd_value (out0 t)) deps) < U128 -> nsum (map (fun t => cd_value (out1 t)) deps) < U128 ->
  let p := match get_pool s k with Some p => p | None => new_empty_pool end in
  (* the issued liquidity does not saturate *)
  (forall p'' m, pool_deposit p (nsum (map (fun t => cd_value (out0 t)) deps)) (nsum (map (fun t => cd_value (out1 t)) deps)) = Ok (p'', m) ->
                 p_liqs p + m < U128) ->
  exists p', s_pools s' = <[poolkey_code k := p']> (s_pools s) /\
    (forall d, d <> LD -> coin_supply d (s_coins s') + side d k p' <= coin_supply d (s_coins s) + side d k p) /\
    coin_supply LD (s_coins s') + p_liqs p <= coin_supply LD (s_coins s) + p_liqs p'.
Proof using HLD1 HLD2.
  intros (p' & total_liqs & Hpl & H)%deposits_single_pool_inv Hleg Hnd Hdecl Hs0 Hs1 p Hnosat.
  rewrite (sat_sum_nsum _ Hs0), (sat_sum_nsum _ Hs1) in Hpl, H.
  set (tl := nsum (map (fun t => cd_value (out0 t)) deps)) in *.
  set (tr := nsum (map (fun t => cd_value (out1 t)) deps)) in *.
  fold p in Hpl. specialize (Hnosat _ _ Hpl).
  pose proof (fun d => deposits_go_supply total_liqs (sat_mul128 (N.sqrt tl) (N.sqrt tr)) d deps total_liqs (put_pool s k p') s' H Hleg Hnd) as Hgo.
  cbn [s_coins put_pool set_pools] in Hgo.
  exists p'. split; [exact (proj1 (proj2 (deposits_go_rewrites SO _ _ _ _ _ _ _ H)))|].
  (* the pool takes in at most the two totals and records the liquidity it issues *)
  assert (Hpool: p_lefts p' <= p_lefts p + tl /\ p_rights p' <= p_rights p + tr /\ p_liqs p' = p_liqs p + total_liqs).
  { unfold pool_deposit in Hpl. destruct (N.eqb_spec (p_liqs p) 0) as [E0|E0].
    - injection Hpl as <- <-. cbn [p_lefts p_rights p_liqs]. lia.
    - destruct (p_lefts p * p_rights p =? 0); [discriminate|]. injection Hpl as <- <-. cbn [p_lefts p_rights p_liqs].
      pose proof (sat_add128_le tl (p_lefts p)). pose proof (sat_add128_le tr (p_rights p)).
      rewrite (sat_add_small _ _ Hnosat). lia. }
  destruct Hpool as (PL & PR & PQ).
  (* the request coins held exactly the two totals *)
  assert (Hold: forall d, nsum (map (fun t => vopt d (s_coins s !! key0 t) + vopt d (s_coins s !! key1 t)) deps)
                = on_side d k tl tr).
  { intros d. unfold tl, tr. rewrite <- nsum_on_side. f_equal. apply map_ext_in. intros t Ht.
    destruct (Hdecl t Ht) as (D0 & D1 & F0 & F1). rewrite (declared0_vopt _ _ _ D0), (declared1_vopt _ _ _ D1), F0, F1.
    unfold on_side. rewrite (denom_eqb_sym (fst k) d), (denom_eqb_sym (snd k) d). reflexivity. }
  split.
  - intros d Hd. pose proof (Hgo d) as Es. rewrite Hold in Es.
    assert (F: denom_eqb LD d = false) by (apply not_true_iff_false; intros E%denom_eqb_eq; congruence).
    rewrite F in Es. pose proof (on_side_le d k _ _ _ _ PL PR) as A. rewrite on_side_add in A.
    rewrite !side_on_side. lia.
  - pose proof (Hgo LD) as Es. rewrite Hold, denom_eqb_refl, (on_side_other LD k tl tr HLD1 HLD2) in Es.
    pose proof (clamped_shares_le total_liqs (sat_mul128 (N.sqrt tl) (N.sqrt tr)) (map my_of deps) total_liqs). lia.
Qed.
End Deposits.
