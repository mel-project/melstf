(* C10: laws of the reference interpreter (VM/Exec.v). *)
From MelVerif Require Import VM.Exec VM.LoopProofs.
From Coq Require Import ZifyN ZifyNat ZifyBool.
Open Scope N_scope.

Definition with_stack (s : state) (st : list value) : state :=
  {| pc := pc s + 1; stack := st; heap := heap s; loops := loops s |}.

Lemma exec_add O s a b r : stack s = VInt a :: VInt b :: r ->
  exec_op O Add s = Some (with_stack s (VInt ((a + b) mod U256) :: r)).
Proof. intros E. unfold exec_op. rewrite E. reflexivity. Qed.

Lemma exec_mul O s a b r : stack s = VInt a :: VInt b :: r ->
  exec_op O Mul s = Some (with_stack s (VInt ((a * b) mod U256) :: r)).
Proof. intros E. unfold exec_op. rewrite E. reflexivity. Qed.

(* a + M - b mod M never truncates *)
Lemma wsub_mod M a b : M <> 0 ->
  Z.of_N ((a + M - b mod M) mod M) = ((Z.of_N a - Z.of_N b) mod Z.of_N M)%Z.
Proof.
  intros HM. pose proof (N.mod_lt b M HM).
  rewrite N2Z.inj_mod, N2Z.inj_sub, N2Z.inj_add, N2Z.inj_mod by lia.
  rewrite <- (Zminus_mod_idemp_r (Z.of_N a) (Z.of_N b)).
  rewrite <- (Z_mod_plus_full (Z.of_N a - Z.of_N b mod Z.of_N M) 1 (Z.of_N M)). f_equal. lia.
Qed.

Lemma wsub256_spec a b : a < U256 -> b < U256 ->
  Z.of_N (wsub256 a b) = ((Z.of_N a - Z.of_N b) mod Z.of_N U256)%Z.
Proof. intros _ _. apply wsub_mod. discriminate. Qed.

Lemma exec_sub O s a b r : stack s = VInt a :: VInt b :: r ->
  exec_op O Sub s = Some (with_stack s (VInt (wsub256 a b) :: r)).
Proof. intros E. unfold exec_op. rewrite E. reflexivity. Qed.

Lemma exec_div O s a b r : stack s = VInt a :: VInt b :: r ->
  exec_op O Div s = if b =? 0 then None else Some (with_stack s (VInt (a / b) :: r)).
Proof. intros E. unfold exec_op. rewrite E. cbn. destruct (b =? 0); reflexivity. Qed.

Lemma exec_rem O s a b r : stack s = VInt a :: VInt b :: r ->
  exec_op O Rem s = if b =? 0 then None else Some (with_stack s (VInt (a mod b) :: r)).
Proof. intros E. unfold exec_op. rewrite E. cbn. destruct (b =? 0); reflexivity. Qed.

Lemma pow_mod_l a n m : m <> 0 -> ((a mod m) ^ n) mod m = (a ^ n) mod m.
Proof.
  intros Hm. induction n as [|n IH] using N.peano_ind.
  - rewrite !N.pow_0_r. reflexivity.
  - rewrite !N.pow_succ_r'. rewrite N.mul_mod by exact Hm. rewrite IH.
    rewrite N.mod_mod by exact Hm. rewrite <- N.mul_mod by exact Hm. reflexivity.
Qed.

Lemma pow_split b e : b ^ e = (b * b) ^ (e / 2) * b ^ (e mod 2).
Proof.
  rewrite <- N.pow_2_r, <- N.pow_mul_r, <- N.pow_add_r. f_equal.
  pose proof (N.div_mod e 2 ltac:(discriminate)). lia.
Qed.

Lemma exp_invariant b e res :
  ((if N.odd e then wmul256 res b else res) * (wmul256 b b) ^ (e / 2)) mod U256 = (res * b ^ e) mod U256.
Proof.
  assert (HU: U256 <> 0) by discriminate.
  rewrite (pow_split b e). unfold wmul256.
  rewrite (N.mul_mod _ (((b * b) mod U256) ^ (e / 2))) by exact HU.
  rewrite pow_mod_l by exact HU.
  assert (Hm: e mod 2 = if N.odd e then 1 else 0).
  { rewrite <- N.bit0_mod, N.bit0_odd. destruct (N.odd e); reflexivity. }
  rewrite Hm. destruct (N.odd e).
  - rewrite N.pow_1_r, N.mod_mod by exact HU. rewrite <- N.mul_mod by exact HU.
    f_equal. lia.
  - rewrite N.pow_0_r, N.mul_1_r. rewrite <- N.mul_mod by exact HU. reflexivity.
Qed.

Lemma exp_loop_spec : forall fuel k e b res, e < 2 ^ N.of_nat fuel ->
  (e < 2 ^ k -> exists r, exp_loop (S fuel) k e b res = Some r /\ r mod U256 = (res * b ^ e) mod U256) /\
  (2 ^ k <= e -> exp_loop (S fuel) k e b res = None).
Proof.
  induction fuel as [|f IH]; intros k e b res Hf;
    assert (H2: 2 ^ k <> 0) by (apply N.pow_nonzero; discriminate).
  - change (N.of_nat 0) with 0 in Hf. rewrite N.pow_0_r in Hf. assert (e = 0) by lia. subst e.
    split; intros Hk; [|lia]. exists res. cbn. rewrite N.pow_0_r, N.mul_1_r. auto.
  - remember (S f) as f1. cbn [exp_loop]. subst f1.
    destruct (N.eqb_spec e 0) as [->|He].
    { split; intros Hk; [|lia]. exists res. rewrite N.pow_0_r, N.mul_1_r. auto. }
    destruct (N.eqb_spec k 0) as [->|Hk0].
    { split; intros Hk; [rewrite N.pow_0_r in Hk; lia|reflexivity]. }
    rewrite Nat2N.inj_succ, N.pow_succ_r' in Hf.
    assert (Hk': 2 ^ k = 2 * 2 ^ (k - 1)).
    { replace k with (N.succ (k - 1)) at 1 by lia. apply N.pow_succ_r'. }
    destruct (IH (k - 1) (e / 2) (wmul256 b b) (if N.odd e then wmul256 res b else res)) as [Iok Ifail].
    { apply N.div_lt_upper_bound; [discriminate|exact Hf]. }
    split; intros Hk.
    + destruct Iok as (r & Hr & Hm); [apply N.div_lt_upper_bound; [discriminate|lia]|].
      exists r. split; [exact Hr|]. rewrite Hm. apply exp_invariant.
    + apply Ifail. apply N.div_le_lower_bound; [discriminate|lia].
Qed.

(* bit-bounded exponentiation: Exp k computes b^e mod 2^256 iff e < 2^(k+1) *)
Theorem exec_exp O s k b e r : stack s = VInt b :: VInt e :: r -> e < U256 -> b < U256 ->
  (e < 2 ^ (k + 1) ->
     exists v, exec_op O (Exp k) s = Some (with_stack s (VInt v :: r)) /\ v mod U256 = (b ^ e) mod U256) /\
  (2 ^ (k + 1) <= e -> exec_op O (Exp k) s = None).
Proof.
  intros E He Hb. unfold exec_op. rewrite E. cbn [binop int2].
  destruct (exp_loop_spec 256 (k + 1) e b 1 He) as [Iok Ifail].
  split; intros Hk.
  - destruct (Iok Hk) as (v & Hv & Hm).
    rewrite Hv. exists v. split; [reflexivity|]. rewrite Hm. f_equal. lia.
  - rewrite (Ifail Hk). reflexivity.
Qed.

Lemma binop_underflow f : binop [] f = None /\ forall x, binop [x] f = None.
Proof. split; reflexivity. Qed.

Lemma int2_type_error f x y :
  (forall n, x <> VInt n) \/ (forall n, y <> VInt n) -> int2 f x y = None.
Proof.
  intros [H|H]; destruct x, y; cbn; try reflexivity; exfalso; eapply H; reflexivity.
Qed.

Theorem arith_fails_on_bad_operands O s o :
  In o [Add; Sub; Mul; Div; Rem; And; Or; Xor; Eql; Lt; Gt; Shl; Shr] ->
  (match stack s with
   | VInt _ :: VInt _ :: _ => False
   | _ => True
   end) -> exec_op O o s = None.
Proof.
  intros Hin Hs.
  assert (G: forall f, binop (stack s) (int2 f) = None).
  { intros f. destruct (stack s) as [|x [|y r]]; try reflexivity.
    destruct x; try reflexivity. destruct y; try reflexivity. contradiction. }
  cbn in Hin.
  repeat (destruct Hin as [<-|Hin]; [unfold exec_op; rewrite G; reflexivity|]). contradiction.
Qed.

(* out-of-range or inverted bounds give the empty sequence, never a failure *)
Lemma slice_spec {A} (l : list A) b e :
  slice l b e = if (len l <? e) || (e <? b) then [] else firstn (N.to_nat (e - b)) (skipn (N.to_nat b) l).
Proof. reflexivity. Qed.

Lemma slice_length {A} (l : list A) b e : b <= e -> e <= len l -> len (slice l b e) = e - b.
Proof.
  intros H1 H2. unfold slice, len in *.
  destruct (N.ltb_spec (N.of_nat (length l)) e); [lia|].
  destruct (N.ltb_spec e b); [lia|]. cbn [orb].
  rewrite firstn_length, skipn_length. lia.
Qed.

Theorem jumps_forward O o s s' :
  is_loop o = false -> exec_op O o s = Some s' -> pc s < pc s' /\ loops s' = loops s.
Proof.
  intros L H. destruct (exec_plain O o s s' L H) as [Hl [j Hp]]. split; [lia|exact Hl].
Qed.

(* the only backward move is the loop back-edge taken by update_pc_state, which decrements the
   remaining iteration count of the innermost live frame *)
Theorem update_backedge : forall st p p' st',
  update p st = (p', st') -> p' = p \/
  exists f rest, 0 < f_left f /\ p = f_end f + 1 /\ p' = f_begin f /\
    st' = {| f_begin := f_begin f; f_end := f_end f; f_left := f_left f - 1 |} :: rest.
Proof.
  induction st as [|f rest IH]; intros p p' st' H; cbn [update] in H.
  - injection H as <- <-. auto.
  - destruct (N.ltb_spec (f_end f) p).
    + destruct (N.ltb_spec 0 (f_left f)); destruct (N.eqb_spec (p - f_end f) 1); cbn [andb] in H;
        try (apply IH in H; exact H).
      injection H as <- <-. right. exists f, rest. repeat split; try lia.
    + injection H as <- <-. auto.
Qed.

(* result: the value on top of the stack when the pc leaves the program; determinism is by
   construction (run is a function of oracle, program and heap) *)
Theorem result_is_top O prog s n :
  len prog <= pc s ->
  step1 O prog s n = Fin (match stack s with v :: _ => Some v | [] => None end) n.
Proof.
  intros H. unfold step1. destruct (N.ltb_spec (pc s) (len prog)); [lia|reflexivity].
Qed.

Theorem failure_is_final O prog s n :
  pc s < len prog -> step O prog s = None -> step1 O prog s n = Fin None (n + 1).
Proof.
  intros H E. unfold step1. destruct (N.ltb_spec (pc s) (len prog)); [|lia]. rewrite E. reflexivity.
Qed.
