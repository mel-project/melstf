(* C12: the bytecode codec is a bijection between decodable byte strings and representable programs. *)
From MelVerif Require Import Base.ArithProofs VM.Codec.
From Coq Require Import ZifyN ZifyNat ZifyBool.
Open Scope N_scope.

(* facts about the regenerated tables (re-checked on every run) *)
Lemma dec_byte_enc t : dec_byte t = Some (opcode_byte t).
Proof. destruct t; reflexivity. Qed.
Lemma enc_shape_native t : enc_shape t = native_shape t.
Proof. destruct t; reflexivity. Qed.
Lemma dec_shape_native t : dec_shape t = native_shape t.
Proof. destruct t; reflexivity. Qed.
Lemma tag_of_byte_enc t : tag_of_byte (opcode_byte t) = Some t.
Proof. destruct t; vm_compute; reflexivity. Qed.
Lemma opcode_byte_lt t : opcode_byte t < 256.
Proof. destruct t; reflexivity. Qed.
Lemma opcode_byte_inj t1 t2 : opcode_byte t1 = opcode_byte t2 -> t1 = t2.
Proof. intros H. pose proof (tag_of_byte_enc t1) as H1. rewrite H, tag_of_byte_enc in H1. congruence. Qed.

Lemma tag_of_byte_sound b t : tag_of_byte b = Some t -> opcode_byte t = b.
Proof.
  unfold tag_of_byte. intros H. apply find_some in H as [_ H].
  rewrite dec_byte_enc in H. apply N.eqb_eq in H. exact H.
Qed.

Lemma build_args o : build (tag_of o) (args_of o) = Some o.
Proof. destruct o; reflexivity. Qed.

Lemma build_inv t a o : build t a = Some o -> tag_of o = t /\ args_of o = a.
Proof. destruct t, a; cbn; intros H; try discriminate; injection H as <-; auto. Qed.

Definition wf_arg (s : shape) (a : arg) : Prop :=
  match s, a with
  | SNone, ANone => True
  | SU8, A1 k => k < U8
  | SU16, A1 n => n < U16
  | SU16U16, A2 a b => a < U16 /\ b < U16
  | SBytes, ABytes l => bytes_ok l
  | SInt32, A1 n => n < U256
  | SIntC, A1 n => n < U256
  | _, _ => False
  end.

Lemma wf_op_arg o : wf_op o <-> wf_arg (native_shape (tag_of o)) (args_of o).
Proof. destruct o; cbn; tauto. Qed.

Lemma take_spec n bs x r : bytes_ok bs -> take n bs = Some (x, r) ->
  bs = x ++ r /\ length x = N.to_nat n /\ bytes_ok x.
Proof.
  unfold take. destruct (N.ltb_spec (N.of_nat (length bs)) n) as [|Hle]; [discriminate|].
  intros Hok H. injection H as <- <-. split; [symmetry; apply firstn_skipn|].
  split; [rewrite firstn_length; lia|apply bytes_ok_firstn, Hok].
Qed.

Lemma take_app x r : take (N.of_nat (length x)) (x ++ r) = Some (x, r).
Proof.
  unfold take. rewrite app_length.
  destruct (N.ltb_spec (N.of_nat (length x + length r)) (N.of_nat (length x))) as [Hlt|_]; [lia|].
  rewrite Nat2N.id. rewrite firstn_app, Nat.sub_diag, firstn_all. cbn [firstn].
  rewrite app_nil_r. rewrite skipn_app, Nat.sub_diag, skipn_all. reflexivity.
Qed.

Lemma byte_len_fuel_spec f : forall v k, v < 256 ^ N.of_nat f ->
  (byte_len_fuel f v <= k <-> v < 256 ^ k).
Proof.
  induction f as [|f IH]; intros v k Hf; cbn [byte_len_fuel];
    assert (Hp : 256 ^ k <> 0) by (apply N.pow_nonzero; discriminate).
  - change (N.of_nat 0) with 0 in Hf. rewrite N.pow_0_r in Hf. lia.
  - destruct (N.eqb_spec v 0) as [->|Hv]; [lia|].
    destruct (N.eq_dec k 0) as [->|Hk]; [rewrite N.pow_0_r; lia|].
    rewrite Nat2N.inj_succ, N.pow_succ_r' in Hf.
    replace k with (N.succ (k - 1)) at 2 by lia. rewrite N.pow_succ_r'.
    assert (Hd : v / 256 < 256 ^ N.of_nat f) by (apply N.div_lt_upper_bound; [discriminate|exact Hf]).
    specialize (IH (v / 256) (k - 1) Hd).
    pose proof (N.div_mod v 256 ltac:(discriminate)). pose proof (N.mod_lt v 256 ltac:(discriminate)).
    clear Hf Hd. lia.
Qed.

Lemma byte_len_spec v k : v < U256 -> (byte_len v <= k <-> v < 256 ^ k).
Proof. intros H. apply byte_len_fuel_spec. eapply N.lt_trans; [exact H|reflexivity]. Qed.

Lemma U256_pow : U256 = 256 ^ N.of_nat 32.
Proof. reflexivity. Qed.

Lemma of_be_field k x : bytes_ok x -> length x = k ->
  be_bytes k (of_be x) = x /\ of_be x < 256 ^ N.of_nat k.
Proof. intros H <-. split; [apply be_bytes_of_be|apply of_be_lt]; exact H. Qed.

Lemma be2_split n : n < U16 -> exists x y, be_bytes 2 n = [x; y] /\ x * 256 + y = n.
Proof.
  intros H. exists ((n / 256) mod 256), (n mod 256). split; [reflexivity|].
  change (of_be (be_bytes 2 n) = n). rewrite of_be_be_bytes. apply N.mod_small. exact H.
Qed.

Lemma be2_join x y : bytes_ok [x; y] -> be_bytes 2 (x * 256 + y) = [x; y] /\ x * 256 + y < U16.
Proof. intros H. exact (of_be_field 2 [x; y] H eq_refl). Qed.

Lemma write_arg_spec s a : wf_arg s a ->
  match write_arg s a with
  | Some w => bytes_ok w /\ forall r, read_arg s (w ++ r) = Some (a, r)
  | None => True
  end.
Proof.
  destruct s, a; cbn [wf_arg write_arg]; intros Hwf; try contradiction.
  - split; [constructor|reflexivity].
  - split; [constructor; [exact Hwf|constructor]|reflexivity].
  - split; [apply be_bytes_ok|]. intros r.
    destruct (be2_split n Hwf) as (x & y & -> & <-). reflexivity.
  - destruct Hwf as [Ha Hb]. split; [apply bytes_ok_app; split; apply be_bytes_ok|]. intros r.
    destruct (be2_split a Ha) as (x & y & -> & <-). destruct (be2_split b Hb) as (z & u & -> & <-). reflexivity.
  - destruct (N.ltb_spec 255 (N.of_nat (length l))); [exact I|].
    split; [apply bytes_ok_cons; split; [lia|exact Hwf]|]. intros r.
    cbn [app read_arg]. rewrite take_app. reflexivity.
  - split; [apply be_bytes_ok|]. intros r. cbn [read_arg].
    pose proof (take_app (be_bytes 32 n) r) as T. rewrite be_bytes_length in T.
    change (N.of_nat 32) with 32 in T. rewrite T.
    rewrite of_be_be_bytes, <- U256_pow, N.mod_small by exact Hwf. reflexivity.
  - pose proof (proj2 (byte_len_spec n 32 Hwf) Hwf) as Hle.
    split; [apply bytes_ok_cons; split; [lia|apply be_bytes_ok]|]. intros r. cbn [app read_arg].
    destruct (N.ltb_spec 32 (byte_len n)) as [Hgt|_]; [lia|].
    pose proof (take_app (be_bytes (N.to_nat (byte_len n)) n) r) as T.
    rewrite be_bytes_length, N2Nat.id in T. rewrite T.
    rewrite of_be_be_bytes, N2Nat.id, N.mod_small by apply (byte_len_spec n _ Hwf), N.le_refl.
    rewrite N.eqb_refl. reflexivity.
Qed.

Lemma read_arg_spec s bs a r :
  bytes_ok bs -> read_arg s bs = Some (a, r) ->
  exists w, write_arg s a = Some w /\ bs = w ++ r /\ wf_arg s a.
Proof.
  intros Hok. destruct s; cbn [read_arg]; intros H.
  - injection H as <- <-. exists []. cbn. auto.
  - destruct bs as [|b bs]; [discriminate|]. injection H as <- <-.
    apply bytes_ok_cons in Hok as [Hb _]. exists [b]. cbn. auto.
  - destruct bs as [|x [|y bs]]; try discriminate. injection H as <- <-.
    destruct (be2_join x y (bytes_ok_firstn 2 _ Hok)) as [E Hlt].
    exists [x; y]. cbn [write_arg wf_arg]. rewrite E. auto.
  - destruct bs as [|x [|y [|z [|u bs]]]]; try discriminate. injection H as <- <-.
    destruct (be2_join x y (bytes_ok_firstn 2 _ Hok)) as [E1 H1].
    destruct (be2_join z u (bytes_ok_firstn 2 _ (bytes_ok_skipn 2 _ Hok))) as [E2 H2].
    exists [x; y; z; u]. cbn [write_arg wf_arg]. rewrite E1, E2. auto.
  - destruct bs as [|n bs]; [discriminate|].
    destruct (take n bs) as [[x r']|] eqn:T; [|discriminate]. injection H as <- <-.
    apply bytes_ok_cons in Hok as [Hn Hok]. apply (take_spec _ _ _ _ Hok) in T as (-> & Hl & Hx).
    exists (n :: x). cbn [write_arg wf_arg]. rewrite Hl, N2Nat.id.
    destruct (N.ltb_spec 255 n); [lia|]. auto.
  - destruct (take 32 bs) as [[x r']|] eqn:T; [|discriminate]. injection H as <- <-.
    apply (take_spec _ _ _ _ Hok) in T as (-> & Hl & Hx).
    destruct (of_be_field 32 x Hx Hl) as [E Hlt].
    exists x. cbn [write_arg wf_arg]. rewrite E. auto.
  - destruct bs as [|n bs]; [discriminate|].
    destruct (N.ltb_spec 32 n) as [|Hn]; [discriminate|].
    destruct (take n bs) as [[x r']|] eqn:T; [|discriminate].
    destruct (N.eqb_spec (byte_len (of_be x)) n) as [Hb|]; [|discriminate].
    injection H as <- <-.
    apply bytes_ok_cons in Hok as [_ Hok]. apply (take_spec _ _ _ _ Hok) in T as (-> & Hl & Hx).
    destruct (of_be_field (N.to_nat n) x Hx Hl) as [E Hlt].
    exists (n :: x). cbn [write_arg wf_arg]. rewrite Hb, E. split; [reflexivity|]. split; [reflexivity|].
    eapply N.lt_le_trans; [exact Hlt|]. rewrite N2Nat.id, U256_pow.
    apply N.pow_le_mono_r; [discriminate|exact Hn].
Qed.

Lemma encode_op_spec o w :
  wf_op o -> encode_op o = Some w ->
  bytes_ok w /\ w <> [] /\ forall r, decode_op (w ++ r) = Some (o, r).
Proof.
  unfold encode_op. rewrite enc_shape_native. intros Hwf.
  pose proof (write_arg_spec _ _ (proj1 (wf_op_arg o) Hwf)) as S.
  destruct (write_arg (native_shape (tag_of o)) (args_of o)) as [bs|]; [|discriminate].
  destruct S as [Hok Hr]. intros H. injection H as <-.
  split; [apply bytes_ok_cons; split; [apply opcode_byte_lt|exact Hok]|]. split; [discriminate|].
  intros r. cbn [app decode_op]. rewrite tag_of_byte_enc, dec_shape_native, Hr, build_args. reflexivity.
Qed.

Lemma decode_op_spec bs o r :
  bytes_ok bs -> decode_op bs = Some (o, r) ->
  exists w, encode_op o = Some w /\ bs = w ++ r /\ wf_op o.
Proof.
  intros Hok. unfold decode_op. destruct bs as [|b bs]; [discriminate|].
  destruct (tag_of_byte b) as [t|] eqn:Ht; [|discriminate].
  destruct (read_arg (dec_shape t) bs) as [[a r']|] eqn:Hr; [|discriminate].
  destruct (build t a) as [o'|] eqn:Hb; [|discriminate].
  intros H. injection H as <- <-.
  apply build_inv in Hb as [Htag Harg]. apply tag_of_byte_sound in Ht.
  apply bytes_ok_cons in Hok as [_ Hok].
  rewrite dec_shape_native in Hr.
  destruct (read_arg_spec _ _ _ _ Hok Hr) as (w & Hw & -> & Hwf).
  exists (b :: w). unfold encode_op. rewrite Htag, enc_shape_native, Harg, Hw, Ht.
  split; [reflexivity|]. split; [reflexivity|].
  apply wf_op_arg. rewrite Htag, Harg. exact Hwf.
Qed.

Lemma decode_fuel_spec : forall f bs ops,
  bytes_ok bs -> decode_fuel f bs = Some ops ->
  encode_all ops = Some bs /\ Forall wf_op ops.
Proof.
  induction f as [|f IH]; intros bs ops Hok H.
  - destruct bs; [|discriminate]. injection H as <-. cbn. auto.
  - destruct bs as [|b bs]; [injection H as <-; cbn; auto|].
    cbn [decode_fuel] in H.
    destruct (decode_op (b :: bs)) as [[o r]|] eqn:D; [|discriminate].
    destruct (decode_fuel f r) as [os|] eqn:R; [|discriminate]. injection H as <-.
    destruct (decode_op_spec _ _ _ Hok D) as (w & Hw & E & Hwf).
    rewrite E in Hok. apply bytes_ok_app in Hok as [_ Hr].
    destruct (IH _ _ Hr R) as [He Hf].
    cbn [encode_all]. rewrite Hw, He, E. auto.
Qed.

Theorem decode_then_encode bs ops :
  bytes_ok bs -> decode_all bs = Some ops -> encode_all ops = Some bs /\ Forall wf_op ops.
Proof. intros Hok H. exact (decode_fuel_spec _ _ _ Hok H). Qed.

Lemma encode_all_spec : forall ops bs,
  Forall wf_op ops -> encode_all ops = Some bs ->
  bytes_ok bs /\ forall f, (length bs <= f)%nat -> decode_fuel f bs = Some ops.
Proof.
  induction ops as [|o ops IH]; intros bs Hwf H.
  - injection H as <-. split; [constructor|]. intros [|f] _; reflexivity.
  - cbn [encode_all] in H.
    destruct (encode_op o) as [w|] eqn:Ho; [|discriminate].
    destruct (encode_all ops) as [rest|] eqn:Hr; [|discriminate]. injection H as <-.
    inversion Hwf as [|? ? Hwo Hwr]; subst.
    destruct (encode_op_spec _ _ Hwo Ho) as (Hok & Hne & D).
    destruct (IH rest Hwr eq_refl) as [Hrest IHd].
    split; [apply bytes_ok_app; split; assumption|]. intros f Hf.
    destruct w as [|b w]; [contradiction|].
    destruct f as [|f]; [cbn in Hf; lia|].
    cbn [app decode_fuel]. specialize (D rest). cbn [app] in D. rewrite D.
    rewrite IHd; [reflexivity|].
    cbn [app length] in Hf. rewrite app_length in Hf. lia.
Qed.

Theorem encode_then_decode ops bs :
  Forall wf_op ops -> encode_all ops = Some bs -> decode_all bs = Some ops.
Proof. intros Hwf H. apply (encode_all_spec ops bs Hwf H). apply Nat.le_refl. Qed.

Theorem encode_all_bytes_ok ops bs :
  Forall wf_op ops -> encode_all ops = Some bs -> bytes_ok bs.
Proof. intros Hwf H. apply (encode_all_spec ops bs Hwf H). Qed.

Theorem encode_op_total o :
  wf_op o -> encode_op o = None <-> exists bs, o = PushB bs /\ (255 < length bs)%nat.
Proof.
  intros Hwf. unfold encode_op. rewrite enc_shape_native.
  destruct o; try (split; [discriminate|intros (? & E & _); discriminate E]). cbn.
  destruct (N.ltb_spec 255 (N.of_nat (length bs))).
  - split; [intros _; exists bs; split; [reflexivity|lia]|reflexivity].
  - split; [discriminate|]. intros (x & E & Hx). injection E as <-. lia.
Qed.

Theorem decode_all_inj b1 b2 ops :
  bytes_ok b1 -> bytes_ok b2 -> decode_all b1 = Some ops -> decode_all b2 = Some ops -> b1 = b2.
Proof.
  intros H1 H2 D1 D2.
  destruct (decode_then_encode _ _ H1 D1) as [E1 _].
  destruct (decode_then_encode _ _ H2 D2) as [E2 _]. congruence.
Qed.
