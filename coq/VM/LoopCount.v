(* C10: a counted loop runs its (straight-line) body exactly the stated number of times. *)
From MelVerif Require Import VM.Exec.
From MelVerif Require VM.LoopAbstract.
From Coq Require Import ZifyN ZifyNat ZifyBool.
Open Scope N_scope.
Arguments N.add : simpl never.
Arguments N.sub : simpl never.
Arguments N.ltb : simpl never.
Arguments N.eqb : simpl never.
Arguments N.of_nat : simpl never.
Arguments N.to_nat : simpl never.

Definition is_simple (o : op) : bool :=
  match o with Loop _ _ | Jmp _ | Bez _ | Bnz _ => false | _ => true end.

Definition data_step (O : oracle) (o : op) (d : list value * list (N * value)) : option (list value * list (N * value)) :=
  match exec_op O o {| pc := 0; stack := fst d; heap := snd d; loops := [] |} with
  | Some s' => Some (stack s', heap s')
  | None => None
  end.

Fixpoint exec_body (O : oracle) (body : list op) (d : list value * list (N * value)) : option (list value * list (N * value)) :=
  match body with
  | [] => Some d
  | o :: r => match data_step O o d with Some d' => exec_body O r d' | None => None end
  end.

Fixpoint iter_body (O : oracle) (body : list op) (n : nat) (d : list value * list (N * value)) : option (list value * list (N * value)) :=
  match n with
  | O => Some d
  | S n' => match exec_body O body d with Some d' => iter_body O body n' d' | None => None end
  end.

Lemma simple_exec O o s :
  is_simple o = true ->
  exec_op O o s = match data_step O o (stack s, heap s) with
                  | Some d' => Some {| pc := pc s + 1; stack := fst d'; heap := snd d'; loops := loops s |}
                  | None => None
                  end.
Proof.
  intros Hs. unfold data_step. cbn [fst snd].
  destruct o; try discriminate Hs; unfold exec_op; cbn [pc stack heap loops];
    repeat match goal with
           | |- context [match ?x with _ => _ end] => destruct x
           end; reflexivity.
Qed.

Lemma run_nat_add O prog : forall a b s n,
  run_nat O prog (a + b) s n =
  match run_nat O prog a s n with Cont s' n' => run_nat O prog b s' n' | r => r end.
Proof.
  induction a as [|a IH]; intros b s n; [reflexivity|].
  cbn [Nat.add run_nat]. destruct (step1 O prog s n) as [s' n'|r n']; [apply IH|reflexivity].
Qed.

Lemma nth_error_middle {A} (l : list A) a r : nth_error (l ++ a :: r) (N.to_nat (len l)) = Some a.
Proof. unfold len. rewrite Nat2N.id, nth_error_app2, Nat.sub_diag by apply Nat.le_refl. reflexivity. Qed.

Lemma loop_zero_skips O pre rest L st hp ls :
  step O (pre ++ Loop 0 L :: rest) {| pc := len pre; stack := st; heap := hp; loops := ls |}
  = Some {| pc := fst (update (len pre + 1 + L) ls); stack := st; heap := hp;
            loops := snd (update (len pre + 1 + L) ls) |}.
Proof.
  unfold step. cbn [pc]. rewrite nth_error_middle. unfold exec_op. change (0 <? 0) with false. cbn iota.
  cbn [pc loops stack heap]. destruct (update (len pre + 1 + L) ls) as [q l']. reflexivity.
Qed.

Section Loop.
Variable O : oracle.
Variables (pre body post : list op) (n L : N).
Hypothesis Hn : 1 <= n.
Hypothesis HL : len body = L.
Hypothesis HL1 : 1 <= L.
Hypothesis Hsimple : forallb is_simple body = true.

Let prog := pre ++ Loop n L :: body ++ post.
Let p := len pre.

Lemma nth_body i o : nth_error body i = Some o -> nth_error prog (N.to_nat (p + 1 + N.of_nat i)) = Some o.
Proof.
  intros H. unfold prog, p, len.
  replace (N.to_nat (N.of_nat (length pre) + 1 + N.of_nat i)) with (length pre + S i)%nat by lia.
  rewrite nth_error_app2 by lia. replace (length pre + S i - length pre)%nat with (S i) by lia.
  cbn [nth_error]. rewrite nth_error_app1; [exact H|]. apply nth_error_Some. congruence.
Qed.

Lemma len_prog : p + 1 + L <= len prog.
Proof. rewrite <- HL. unfold prog, p, len. rewrite !app_length. cbn [length]. rewrite app_length. lia. Qed.

Definition frame_of (left : N) : frame := {| f_begin := p + 1; f_end := p + L; f_left := left |}.
Definition in_body (ls : list frame) (i : nat) (left : N) (d : list value * list (N * value)) : state :=
  {| pc := p + 1 + N.of_nat i; stack := fst d; heap := snd d; loops := frame_of left :: ls |}.
Definition behind (ls : list frame) (d : list value * list (N * value)) : state :=
  {| pc := fst (update (p + 1 + L) ls); stack := fst d; heap := snd d; loops := snd (update (p + 1 + L) ls) |}.

Lemma update_inside ls q left : q <= p + L -> update q (frame_of left :: ls) = (q, frame_of left :: ls).
Proof.
  intros H. unfold frame_of. cbn [update f_end]. destruct (N.ltb_spec (p + L) q); [lia|reflexivity].
Qed.
Lemma update_exit ls left :
  update (p + L + 1) (frame_of left :: ls) =
  if 0 <? left then (p + 1, frame_of (left - 1) :: ls) else update (p + L + 1) ls.
Proof.
  unfold frame_of. cbn [update f_end f_left f_begin]. destruct (N.ltb_spec (p + L) (p + L + 1)); [|lia].
  destruct (N.ltb_spec 0 left); cbn [andb]; [|reflexivity].
  destruct (N.eqb_spec (p + L + 1 - (p + L)) 1); [reflexivity|lia].
Qed.

Lemma step_body ls i o left d d' :
  nth_error body i = Some o -> data_step O o d = Some d' ->
  step O prog (in_body ls i left d) =
  let '(q, l) := update (p + 1 + N.of_nat i + 1) (frame_of left :: ls) in
  Some {| pc := q; stack := fst d'; heap := snd d'; loops := l |}.
Proof.
  intros Hi Hd. unfold step. cbn [pc in_body]. rewrite (nth_body i o Hi).
  assert (Hs: is_simple o = true).
  { rewrite forallb_forall in Hsimple. apply Hsimple. eapply nth_error_In; eauto. }
  rewrite (simple_exec O o _ Hs). cbn [stack heap in_body]. rewrite <- surjective_pairing, Hd. reflexivity.
Qed.

Lemma pc_in_range ls i left d : (N.of_nat i < L) -> (pc (in_body ls i left d) <? len prog) = true.
Proof. intros H. cbn [pc in_body]. pose proof len_prog. apply N.ltb_lt. lia. Qed.

Lemma run_body_from ls : forall k i left d d' cnt,
  (i + k = N.to_nat L)%nat -> (1 <= k)%nat ->
  exec_body O (skipn i body) d = Some d' ->
  run_nat O prog k (in_body ls i left d) cnt =
  Cont (if 0 <? left then in_body ls 0 (left - 1) d' else behind ls d') (cnt + N.of_nat k).
Proof.
  induction k as [|k IH]; intros i left d d' cnt Hik Hk Hex; [lia|].
  assert (Hlen: length body = N.to_nat L) by (unfold len in HL; lia).
  destruct (nth_error body i) as [o|] eqn:Hi; [|apply nth_error_None in Hi; lia].
  rewrite (LoopAbstract.skipn_nth_cons body i o Hi) in Hex. cbn [exec_body] in Hex.
  destruct (data_step O o d) as [d1|] eqn:Hd; [|discriminate].
  cbn [run_nat]. unfold step1. rewrite pc_in_range, (step_body ls i o left d d1 Hi Hd) by lia.
  destruct k as [|k].
  - assert (skipn (S i) body = []) by (apply skipn_all2; lia). rewrite H in Hex. injection Hex as <-.
    replace (p + 1 + N.of_nat i + 1) with (p + L + 1) by lia. rewrite update_exit. cbn [run_nat].
    destruct (0 <? left).
    + unfold in_body. do 2 f_equal. lia.
    + unfold behind. replace (p + 1 + L) with (p + L + 1) by lia. destruct (update (p + L + 1) ls).
      f_equal; lia.
  - rewrite update_inside by lia. replace (p + 1 + N.of_nat i + 1) with (p + 1 + N.of_nat (S i)) by lia.
    fold (in_body ls (S i) left d1). rewrite (IH (S i) left d1 d' (cnt + 1) ltac:(lia) ltac:(lia) Hex). f_equal; lia.
Qed.

Lemma run_iterations ls : forall m left d d' cnt,
  N.of_nat m = left + 1 ->
  iter_body O body m d = Some d' ->
  run_nat O prog (m * N.to_nat L) (in_body ls 0 left d) cnt = Cont (behind ls d') (cnt + N.of_nat m * L).
Proof.
  induction m as [|m IH]; intros left d d' cnt Hm Hit; [lia|].
  cbn [iter_body] in Hit. destruct (exec_body O body d) as [d1|] eqn:Hb; [|discriminate].
  cbn [Nat.mul]. rewrite run_nat_add.
  rewrite (run_body_from ls (N.to_nat L) 0 left d d1 cnt ltac:(lia) ltac:(lia) Hb).
  destruct (N.ltb_spec 0 left) as [Hl|Hl].
  - rewrite (IH (left - 1) d1 d' _ ltac:(lia) Hit). f_equal; lia.
  - assert (m = 0%nat) by lia. subst m. cbn [iter_body] in Hit. injection Hit as <-.
    cbn [Nat.mul run_nat]. f_equal; lia.
Qed.

(* the loop inside any enclosing loops that reach at least to its end: the nesting Executor::step demands *)
Theorem loop_runs_body_n_times_nested ls st hp d' cnt :
  match ls with [] => True | g :: _ => p + L <= f_end g end ->
  iter_body O body (N.to_nat n) (st, hp) = Some d' ->
  run_nat O prog (1 + N.to_nat n * N.to_nat L) {| pc := p; stack := st; heap := hp; loops := ls |} cnt =
  Cont (behind ls d') (cnt + 1 + n * L).
Proof.
  intros Hnest Hit. cbn [Nat.add run_nat]. unfold step1. cbn [pc].
  pose proof len_prog. destruct (N.ltb_spec p (len prog)); [|lia].
  assert (Hstep : step O prog {| pc := p; stack := st; heap := hp; loops := ls |}
                  = Some (in_body ls 0 (n - 1) (st, hp))).
  { unfold step. cbn [pc]. rewrite (nth_error_middle pre _ _ : nth_error prog (N.to_nat p) = _).
    unfold exec_op. destruct (N.ltb_spec 0 n); [|lia]. cbn [loops pc stack heap].
    replace (p + 1 + L - 1) with (p + L) by lia.
    assert (Hn' : match ls with [] => true | last :: _ => negb (f_end last <? p + L) end = true).
    { destruct ls as [|g ?]; [reflexivity|]. destruct (N.ltb_spec (f_end g) (p + L)); [lia|reflexivity]. }
    rewrite Hn'. cbn [pc loops stack heap]. fold (frame_of (n - 1)). rewrite update_inside by lia.
    unfold in_body. do 2 f_equal. lia. }
  rewrite Hstep, (run_iterations ls (N.to_nat n) (n - 1) (st, hp) d' (cnt + 1) ltac:(lia) Hit). f_equal; lia.
Qed.

(* C10: starting at the Loop instruction with an empty loop stack, after 1 + n * |body| steps the machine sits
   just behind the body, the loop stack is empty again, and stack and heap are those obtained by running the
   body n times - exactly n, no more and no fewer *)
Theorem loop_runs_body_exactly_n_times st hp d' cnt :
  iter_body O body (N.to_nat n) (st, hp) = Some d' ->
  run_nat O prog (1 + N.to_nat n * N.to_nat L) {| pc := p; stack := st; heap := hp; loops := [] |} cnt =
  Cont {| pc := p + 1 + L; stack := fst d'; heap := snd d'; loops := [] |} (cnt + 1 + n * L).
Proof. exact (loop_runs_body_n_times_nested [] st hp d' cnt I). Qed.

Theorem loop_zero_skips_body st hp ls :
  step O (pre ++ Loop 0 L :: body ++ post) {| pc := p; stack := st; heap := hp; loops := ls |}
  = Some {| pc := fst (update (p + 1 + L) ls); stack := st; heap := hp; loops := snd (update (p + 1 + L) ls) |}.
Proof using Hn HL HL1 Hsimple. apply loop_zero_skips. Qed.
End Loop.
