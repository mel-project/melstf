(* The model never leaves the domain the implementation can represent: every integer on the stack and in the heap
   stays below 2^256 (the executor's U256) and every byte below 256 (its u8), whatever instruction is executed -
   so a model value always IS a MelVM value.  (The two length instructions are in range whenever the measured
   sequence has fewer than 2^256 elements.) *)
From MelVerif Require Import Base.ArithProofs VM.Exec VM.ExecProofs VM.Codec VM.CodecProofs.
From Coq Require Import List Lia ZifyN ZifyNat ZifyBool.
Import ListNotations.
Open Scope N_scope.

Fixpoint vwf (v : value) : bool :=
  match v with
  | VInt n => n <? U256
  | VBytes l => forallb (fun b => b <? 256) l
  | VVec l => forallb vwf l
  end.

Definition stwf (s : state) : bool := forallb vwf (stack s) && forallb (fun kv => vwf (snd kv)) (heap s).

(* the decoder only produces such literals (decoded_literals_in_range) *)
Definition opwf (o : op) : bool :=
  match o with
  | PushI n | PushIC n => n <? U256
  | PushB b => forallb (fun x => x <? 256) b
  | _ => true
  end.

Definition oracle_wf (O : oracle) : Prop := forall b, forallb (fun x => x <? 256) (o_hash O b) = true.

Definition length_in_range (o : op) (s : state) : Prop :=
  match o, stack s with
  | VLength, VVec l :: _ => len l < U256
  | BLength, VBytes l :: _ => len l < U256
  | _, _ => True
  end.

Lemma vwf_int n : vwf (VInt n) = true <-> n < U256.
Proof. apply N.ltb_lt. Qed.

Lemma u256_pos : 0 < U256. Proof. reflexivity. Qed.
Lemma mod_u256 x : x mod U256 < U256. Proof. apply N.mod_lt. discriminate. Qed.
Lemma bit_range (b : bool) : (if b then 1 else 0) < U256. Proof. destruct b; reflexivity. Qed.
Lemma byte_mod n : (n mod 256 <? 256) = true.
Proof. apply N.ltb_lt, N.mod_lt. discriminate. Qed.
Lemma byte_range b : b < 256 -> b < U256.
Proof. intros H. apply (N.lt_trans _ _ _ H). reflexivity. Qed.

(* bitwise operations are bounded through the position of the highest set bit *)
Lemma log2_range a : a < U256 <-> N.log2 a < 256.
Proof.
  change U256 with (2 ^ 256). destruct (N.eq_dec a 0) as [->|Ha].
  - split; intros _; reflexivity.
  - apply N.log2_lt_pow2, N.neq_0_lt_0, Ha.
Qed.

Lemma lor_range a b : a < U256 -> b < U256 -> N.lor a b < U256.
Proof. rewrite !log2_range, N.log2_lor. lia. Qed.
Lemma lxor_range a b : a < U256 -> b < U256 -> N.lxor a b < U256.
Proof. rewrite !log2_range. pose proof (N.log2_lxor a b). lia. Qed.
Lemma land_range a b : a < U256 -> N.land a b < U256.
Proof. rewrite !log2_range. pose proof (N.log2_land a b). lia. Qed.
Lemma shiftr_range x n : x < U256 -> N.shiftr x n < U256.
Proof. rewrite !log2_range, N.log2_shiftr. lia. Qed.

Lemma exp_loop_range : forall fuel k e b res, res < U256 ->
  match exp_loop fuel k e b res with Some v => v < U256 | None => True end.
Proof.
  induction fuel as [|f IH]; intros k e b res Hr; cbn [exp_loop]; [exact I|].
  destruct (e =? 0); [exact Hr|]. destruct (k =? 0); [exact I|].
  apply IH. destruct (N.odd e); [apply mod_u256|exact Hr].
Qed.

Lemma forallb_cons_true {A} (p : A -> bool) x l : forallb p (x :: l) = true <-> p x = true /\ forallb p l = true.
Proof. cbn. apply andb_true_iff. Qed.

Lemma stwf_inv s : stwf s = true ->
  forallb vwf (stack s) = true /\ forallb (fun kv => vwf (snd kv)) (heap s) = true.
Proof. apply andb_true_iff. Qed.

Lemma ret_wf s st : stwf s = true -> forallb vwf st = true -> stwf (with_stack s st) = true.
Proof. intros Hs Hst. apply stwf_inv in Hs as [_ Hhp]. apply andb_true_iff. split; assumption. Qed.

Lemma push_wf s v : stwf s = true -> vwf v = true -> stwf (with_stack s (v :: stack s)) = true.
Proof.
  intros Hs Hv. apply ret_wf; [exact Hs|]. apply forallb_cons_true. split; [exact Hv|apply stwf_inv, Hs].
Qed.

(* the local [lift] of exec_op *)
Definition lifted (s : state) (r : option (list value)) : option state :=
  match r with Some st => Some (with_stack s st) | None => None end.

Definition owf (ov : option value) : Prop := match ov with Some v => vwf v = true | None => True end.

Lemma lift_top_wf s r ov s' :
  lifted s (match ov with Some v => Some (v :: r) | None => None end) = Some s' ->
  stwf s = true -> forallb vwf r = true -> owf ov -> stwf s' = true.
Proof.
  intros H Hs Hr Hv. destruct ov as [v|]; [|discriminate]. injection H as <-.
  apply ret_wf; [exact Hs|]. apply forallb_cons_true. split; [exact Hv|exact Hr].
Qed.

Lemma lift_mon_wf s f s' : lifted s (monop (stack s) f) = Some s' -> stwf s = true ->
  (forall x r, stack s = x :: r -> vwf x = true -> owf (f x)) -> stwf s' = true.
Proof.
  intros H Hs Hf. destruct (stwf_inv s Hs) as [Hst _].
  destruct (stack s) as [|x r]; [discriminate|]. apply forallb_cons_true in Hst as [Hx Hr].
  exact (lift_top_wf s r (f x) s' H Hs Hr (Hf x r eq_refl Hx)).
Qed.
Lemma lift_bin_wf s f s' : lifted s (binop (stack s) f) = Some s' -> stwf s = true ->
  (forall x y, vwf x = true -> vwf y = true -> owf (f x y)) -> stwf s' = true.
Proof.
  intros H Hs Hf. destruct (stwf_inv s Hs) as [Hst _].
  destruct (stack s) as [|x [|y r]]; try discriminate.
  apply forallb_cons_true in Hst as [Hx Hr]. apply forallb_cons_true in Hr as [Hy Hr].
  exact (lift_top_wf s r (f x y) s' H Hs Hr (Hf x y Hx Hy)).
Qed.
Lemma lift_tri_wf s f s' : lifted s (triop (stack s) f) = Some s' -> stwf s = true ->
  (forall x y z, vwf x = true -> vwf y = true -> vwf z = true -> owf (f x y z)) -> stwf s' = true.
Proof.
  intros H Hs Hf. destruct (stwf_inv s Hs) as [Hst _].
  destruct (stack s) as [|x [|y [|z r]]]; try discriminate.
  apply forallb_cons_true in Hst as [Hx Hr]. apply forallb_cons_true in Hr as [Hy Hr].
  apply forallb_cons_true in Hr as [Hz Hr].
  exact (lift_top_wf s r (f x y z) s' H Hs Hr (Hf x y z Hx Hy Hz)).
Qed.
Lemma int2_wf f :
  (forall a b, a < U256 -> b < U256 -> match f a b with Some c => c < U256 | None => True end) ->
  forall x y, vwf x = true -> vwf y = true -> owf (int2 f x y).
Proof.
  intros Hf x y Hx Hy. destruct x as [a| |]; try exact I. destruct y as [b| |]; try exact I.
  apply vwf_int in Hx, Hy. specialize (Hf a b Hx Hy). cbn [int2]. destruct (f a b); [apply vwf_int, Hf|exact I].
Qed.

Lemma forallb_nth {A} (p : A -> bool) l i x : forallb p l = true -> nth_error l i = Some x -> p x = true.
Proof. intros H E. rewrite forallb_forall in H. apply H. eapply nth_error_In. exact E. Qed.
Lemma forallb_set_nth {A} (p : A -> bool) : forall l i x l', forallb p l = true -> p x = true -> set_nth l i x = Some l' -> forallb p l' = true.
Proof.
  induction l as [|a l IH]; intros i x l' Hl Hx H; [destruct i; discriminate|].
  apply forallb_cons_true in Hl as [Ha Hl]. destruct i as [|i]; cbn [set_nth] in H.
  - injection H as <-. apply forallb_cons_true. auto.
  - destruct (set_nth l i x) as [r|] eqn:E; [|discriminate]. injection H as <-. apply forallb_cons_true. split; [exact Ha|eapply IH; eauto].
Qed.
Lemma forallb_firstn_skipn {A} (p : A -> bool) n l : forallb p l = true ->
  forallb p (firstn n l) = true /\ forallb p (skipn n l) = true.
Proof. intros H. rewrite <- (firstn_skipn n l), forallb_app in H. apply andb_true_iff, H. Qed.
Lemma forallb_slice {A} (p : A -> bool) l b e : forallb p l = true -> forallb p (slice l b e) = true.
Proof.
  intros H. unfold slice. destruct (_ || _); [reflexivity|].
  apply forallb_firstn_skipn, forallb_firstn_skipn, H.
Qed.

Lemma heap_get_wf h a v : forallb (fun kv => vwf (snd kv)) h = true -> heap_get h a = Some v -> vwf v = true.
Proof.
  induction h as [|[k x] h IH]; intros H E; cbn [heap_get] in E; [discriminate|].
  apply forallb_cons_true in H as [Hx Hh]. destruct (k =? a); [injection E as <-; exact Hx|apply IH; assumption].
Qed.

Section Range.
Variable O : oracle.
Hypothesis HO : oracle_wf O.

Theorem exec_op_range o s s' :
  opwf o = true -> length_in_range o s -> stwf s = true -> exec_op O o s = Some s' -> stwf s' = true.
Proof.
  intros Ho Hlen Hs H. destruct (stwf_inv s Hs) as [Hst Hhp].
  (* the instructions built from monop, binop (on two integers or on any two values) and triop reduce to
     the function they apply to the top of the stack *)
  destruct o; cbn [exec_op] in H; cbn [opwf] in Ho;
    try first [ apply (lift_mon_wf s _ s' H Hs); intros x r Es Hx
              | apply (lift_bin_wf s _ s' H Hs); first [apply int2_wf; intros a b Ha Hb|intros x y Hx Hy]
              | apply (lift_tri_wf s _ s' H Hs); intros x y z Hx Hy Hz ];
    cbn beta iota.
  all: try first [apply mod_u256|apply bit_range].
  - (* Noop *) injection H as <-. exact Hs.
  - (* Div *) destruct (N.eqb_spec b 0) as [Eb|Eb]; [exact I|].
    apply (N.le_lt_trans _ a); [|exact Ha]. apply N.div_le_upper_bound; [exact Eb|]. nia.
  - (* Rem *) destruct (N.eqb_spec b 0) as [Eb|Eb]; [exact I|].
    apply (N.lt_trans _ b); [|exact Hb]. apply N.mod_lt. exact Eb.
  - (* Exp *) apply exp_loop_range, (bit_range true).
  - (* And *) apply land_range. exact Ha.
  - (* Or *) apply lor_range; assumption.
  - (* Xor *) apply lxor_range; assumption.
  - (* Not *) destruct x as [a| |]; try exact I.
    apply vwf_int. apply vwf_int in Hx. pose proof u256_pos. lia.
  - (* Shr *) apply shiftr_range. exact Ha.
  - (* Hash *) destruct x as [|b|]; try exact I. destruct (_ <? _); [exact I|]. apply HO.
  - (* SigEOk *) unfold sigeok. destruct y as [|pk|]; try exact I.
    destruct (32 <? len pk); [reflexivity|]. destruct (negb _); [exact I|].
    destruct x as [|msg|]; try exact I. destruct (_ <? len msg); [exact I|].
    destruct z as [|sg|]; try exact I.
    destruct (64 <? len sg); [reflexivity|destruct (o_sig _ _ _ _); reflexivity].
  - (* Store *) destruct (stack s) as [|a [|v r]]; try discriminate. destruct (into_u16 a); [|discriminate].
    injection H as <-. apply forallb_cons_true in Hst as [_ Hr]. apply forallb_cons_true in Hr as [Hv Hr].
    apply andb_true_iff. split; [exact Hr|]. apply forallb_cons_true. split; [exact Hv|exact Hhp].
  - (* Load *) destruct (stack s) as [|a r]; try discriminate. destruct (into_u16 a) as [addr|]; [|discriminate].
    destruct (heap_get (heap s) addr) as [v|] eqn:Eg; [|discriminate]. injection H as <-.
    apply forallb_cons_true in Hst as [_ Hr].
    apply ret_wf; [exact Hs|]. apply forallb_cons_true. split; [exact (heap_get_wf _ _ _ Hhp Eg)|exact Hr].
  - (* StoreImm *) destruct (stack s) as [|v r]; try discriminate. injection H as <-.
    apply forallb_cons_true in Hst as [Hv Hr].
    apply andb_true_iff. split; [exact Hr|]. apply forallb_cons_true. split; [exact Hv|exact Hhp].
  - (* LoadImm *) destruct (heap_get (heap s) i) as [v|] eqn:Eg; [|discriminate]. injection H as <-.
    exact (push_wf s v Hs (heap_get_wf _ _ _ Hhp Eg)).
  - (* VRef *) destruct (into_u16 y), x as [| |l]; try exact I. cbn [into_vec].
    destruct (nth_error l _) eqn:E; [exact (forallb_nth _ _ _ _ Hx E)|exact I].
  - (* VAppend *) destruct x as [| |a], y as [| |b]; try exact I.
    cbn [owf into_vec vwf] in *. rewrite forallb_app, Hx, Hy. reflexivity.
  - (* VEmpty *) injection H as <-. exact (push_wf s (VVec []) Hs eq_refl).
  - (* VLength *) destruct x as [| |l]; try exact I.
    unfold length_in_range in Hlen. rewrite Es in Hlen. apply vwf_int, Hlen.
  - (* VSlice *) destruct (into_u16 y), (into_u16 z), x as [| |l]; try exact I. apply forallb_slice, Hx.
  - (* VSet *) destruct (into_u16 y), x as [| |l]; try exact I. cbn [into_vec].
    destruct (set_nth l _ z) as [l'|] eqn:E; [|exact I]. exact (forallb_set_nth _ _ _ _ _ Hx Hz E).
  - (* VPush *) destruct x as [| |l]; try exact I.
    cbn [owf into_vec vwf] in *. rewrite forallb_app, Hx. cbn [forallb]. rewrite Hy. reflexivity.
  - (* VCons *) destruct y as [| |l]; try exact I.
    cbn [owf into_vec vwf forallb] in *. rewrite Hx, Hy. reflexivity.
  - (* BRef *) destruct (into_u16 y), x as [|l|]; try exact I. cbn [into_bytes].
    destruct (nth_error l _) as [b|] eqn:E; [|exact I].
    apply vwf_int, byte_range, N.ltb_lt. exact (forallb_nth _ _ _ _ Hx E).
  - (* BAppend *) destruct x as [|a|], y as [|b|]; try exact I.
    cbn [owf into_bytes vwf] in *. rewrite forallb_app, Hx, Hy. reflexivity.
  - (* BEmpty *) injection H as <-. exact (push_wf s (VBytes []) Hs eq_refl).
  - (* BLength *) destruct x as [|l|]; try exact I.
    unfold length_in_range in Hlen. rewrite Es in Hlen. apply vwf_int, Hlen.
  - (* BSlice *) destruct (into_u16 y), (into_u16 z), x as [|l|]; try exact I. apply forallb_slice, Hx.
  - (* BSet *) destruct (into_u16 y), x as [|l|], z as [m| |]; try exact I. cbn [into_bytes into_int].
    destruct (set_nth l _ _) as [l'|] eqn:E; [|exact I].
    apply (forallb_set_nth _ _ _ _ _ Hx) in E; [exact E|]. apply byte_mod.
  - (* BPush *) destruct x as [|l|], y as [m| |]; try exact I.
    cbn [owf into_bytes into_int vwf] in *. rewrite forallb_app, Hx. cbn [forallb]. rewrite byte_mod. reflexivity.
  - (* BCons *) destruct y as [|l|], x as [m| |]; try exact I.
    cbn [owf into_bytes into_int vwf forallb] in *. rewrite Hy, byte_mod. reflexivity.
  - (* Bez *) destruct (stack s) as [|top r]; [discriminate|]. injection H as <-.
    apply forallb_cons_true in Hst as [_ Hr]. exact (ret_wf s r Hs Hr).
  - (* Bnz *) destruct (stack s) as [|top r]; [discriminate|]. injection H as <-.
    apply forallb_cons_true in Hst as [_ Hr]. exact (ret_wf s r Hs Hr).
  - (* Jmp *) injection H as <-. exact Hs.
  - (* Loop *) destruct (0 <? _); [destruct (match loops s with [] => _ | _ => _ end); [|discriminate]|];
      injection H as <-; exact Hs.
  - (* ItoB *) destruct x as [m| |]; try exact I. apply bytes_okb_ok, be_bytes_ok.
  - (* BtoI *) destruct x as [|l|]; try exact I.
    destruct (N.eqb_spec (len l) 32) as [El|]; [|exact I].
    apply vwf_int. pose proof (of_be_lt l (proj1 (bytes_okb_ok l) Hx)) as B. fold (len l) in B. rewrite El in B. exact B.
  - (* TypeQ *) destruct x; reflexivity.
  - (* PushB *) injection H as <-. exact (push_wf s (VBytes bs) Hs Ho).
  - (* PushI *) injection H as <-. exact (push_wf s (VInt n) Hs Ho).
  - (* PushIC *) injection H as <-. exact (push_wf s (VInt n) Hs Ho).
  - (* Dup *) destruct (stack s) as [|v r] eqn:Es; [discriminate|]. injection H as <-.
    rewrite <- Es. apply push_wf; [exact Hs|]. apply forallb_cons_true in Hst. apply Hst.
Qed.
End Range.

Theorem step_range O prog s s' :
  oracle_wf O -> forallb opwf prog = true ->
  (forall o, nth_error prog (N.to_nat (pc s)) = Some o -> length_in_range o s) ->
  stwf s = true -> step O prog s = Some s' -> stwf s' = true.
Proof.
  intros HO Hp Hl Hs H. unfold step in H.
  destruct (nth_error prog (N.to_nat (pc s))) as [o|] eqn:Eo; [|discriminate].
  destruct (exec_op O o s) as [s1|] eqn:E1; [|discriminate].
  pose proof (exec_op_range O HO o s s1 (forallb_nth _ _ _ _ Hp Eo) (Hl o eq_refl) Hs E1) as H1.
  destruct (update (pc s1) (loops s1)) as [p l]. injection H as <-. exact H1.
Qed.

(* the definitions, spelled out for the property files *)
Lemma vwf_def v :
  vwf v = match v with
          | VInt n => n <? U256
          | VBytes l => forallb (fun b => b <? 256) l
          | VVec l => forallb vwf l
          end.
Proof. destruct v; reflexivity. Qed.
Lemma stwf_def s : stwf s = forallb vwf (stack s) && forallb (fun kv => vwf (snd kv)) (heap s).
Proof. reflexivity. Qed.
Lemma opwf_def o :
  opwf o = match o with PushI n | PushIC n => n <? U256 | PushB b => forallb (fun x => x <? 256) b | _ => true end.
Proof. reflexivity. Qed.
Lemma length_in_range_def o s :
  length_in_range o s <->
  match o, stack s with
  | VLength, VVec l :: _ => len l < U256
  | BLength, VBytes l :: _ => len l < U256
  | _, _ => True
  end.
Proof. reflexivity. Qed.

Lemma wf_op_opwf o : wf_op o -> opwf o = true.
Proof.
  destruct o; cbn [wf_op opwf]; try reflexivity; [apply bytes_okb_ok|apply N.ltb_lt|apply N.ltb_lt].
Qed.
Theorem decoded_literals_in_range bs ops : bytes_ok bs -> decode_all bs = Some ops -> forallb opwf ops = true.
Proof.
  intros Hb H. destruct (decode_then_encode bs ops Hb H) as [_ Hw]. apply forallb_forall. intros o Ho.
  apply wf_op_opwf. rewrite Forall_forall in Hw. apply Hw. exact Ho.
Qed.
