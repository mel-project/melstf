(* C11, second half: the cost of *weighing* a covenant.  In the code opcodes_car_weight weighs the body of
   a Loop and then does not skip it, so k consecutive Loop opcodes cost 2^k calls (finding F12). *)
From MelVerif Require Import VM.Weight.
From Coq Require Import ZifyN ZifyNat ZifyBool.
Open Scope N_scope.

Definition tower (k : nat) : list op := repeat (Loop 1 65535) k.

Lemma weight_work_tower : forall k j, (j <= k)%nat -> N.of_nat k <= 65535 ->
  2 ^ N.of_nat j - 1 <= weight_work (tower k) j.
Proof.
  induction k as [|k IH]; intros j Hj Hk.
  - assert (j = 0%nat) by lia. subst. cbn. lia.
  - destruct j as [|j]; [cbn; lia|].
    cbn [tower repeat weight_work]. fold (tower k).
    assert (E: Nat.min (N.to_nat 65535) j = j) by lia. rewrite E.
    pose proof (IH j ltac:(lia) ltac:(lia)) as H.
    rewrite Nat2N.inj_succ, N.pow_succ_r'.
    assert (2 ^ N.of_nat j <> 0) by (apply N.pow_nonzero; discriminate).
    lia.
Qed.

Theorem weigh_exponential : forall k, N.of_nat k <= 65535 ->
  2 ^ N.of_nat k - 1 <= weight_calls (tower k).
Proof.
  intros k Hk. unfold weight_calls. unfold tower at 2. rewrite repeat_length.
  pose proof (weight_work_tower k k (Nat.le_refl k) Hk). lia.
Qed.

Fixpoint count_loops (ops : list op) : nat :=
  match ops with
  | [] => 0
  | Loop _ _ :: r => S (count_loops r)
  | _ :: r => count_loops r
  end.

Lemma weight_work_noloop : forall ops k, count_loops ops = 0%nat -> weight_work ops k <= N.of_nat k.
Proof.
  induction ops as [|o r IH]; intros k H.
  - destruct k; cbn; lia.
  - destruct k as [|k]; [cbn; lia|].
    destruct o; cbn [count_loops] in H; try discriminate;
      cbn [weight_work]; specialize (IH k H); lia.
Qed.

Theorem weigh_linear_one_loop : forall ops k, (count_loops ops <= 1)%nat ->
  weight_work ops k <= 2 * N.of_nat k + 1.
Proof.
  induction ops as [|o r IH]; intros k H.
  - destruct k; cbn; lia.
  - destruct k as [|k]; [cbn; lia|].
    destruct o; cbn [count_loops] in H;
      try (cbn [weight_work]; specialize (IH k H); lia).
    assert (Hr: count_loops r = 0%nat) by lia.
    cbn [weight_work].
    pose proof (weight_work_noloop r k Hr).
    pose proof (weight_work_noloop r (Nat.min (N.to_nat len) k) Hr). lia.
Qed.
