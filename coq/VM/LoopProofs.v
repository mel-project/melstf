(* C11: the concrete interpreter (VM/Exec.v) refines the control-flow machine of VM/LoopAbstract.v,
   hence executes at most weightZ prog instructions and always terminates. *)
From MelVerif Require Import Base.ArithProofs VM.Exec VM.LoopCount.
From MelVerif Require VM.LoopAbstract.
From Coq Require Import ZifyN ZifyNat ZifyBool.
Module LA := MelVerif.VM.LoopAbstract.
Open Scope N_scope.

Arguments N.add : simpl never.
Arguments N.mul : simpl never.
Arguments N.sub : simpl never.
Arguments N.ltb : simpl never.
Arguments N.eqb : simpl never.
Arguments N.min : simpl never.
Arguments N.to_nat : simpl never.
Arguments N.of_nat : simpl never.

Definition is_loop (o : op) : bool := match o with Loop _ _ => true | _ => false end.

Definition aop_of (o : op) : LA.aop :=
  match o with
  | Loop it len => LA.ALoop (N.to_nat it) (N.to_nat len)
  | _ => LA.Plain (N.to_nat (base_weight o))
  end.
Definition aprog (prog : list op) : list LA.aop := map aop_of prog.
Definition aframe (f : frame) : LA.frame :=
  {| LA.fb := N.to_nat (f_begin f); LA.fe := N.to_nat (f_end f); LA.fit := N.to_nat (f_left f) |}.
Definition abs (s : state) : nat * list LA.frame := (N.to_nat (pc s), map aframe (loops s)).

Lemma aframe_mk b e l :
  aframe {| f_begin := b; f_end := e; f_left := l |}
  = {| LA.fb := N.to_nat b; LA.fe := N.to_nat e; LA.fit := N.to_nat l |}.
Proof. reflexivity. Qed.

Lemma plain_op o : is_loop o = false ->
  aop_of o = LA.Plain (N.to_nat (base_weight o)) /\
  (forall rest k, weightZ_upto (o :: rest) (S k) = base_weight o + weightZ_upto rest k) /\
  (forall rest k, weight_upto (o :: rest) (S k) = sat_add128 (base_weight o) (weight_upto rest k)).
Proof. destruct o; intros H; try discriminate H; repeat split. Qed.

(* a fact about the regenerated weight table *)
Lemma base_weight_pos o : is_loop o = false -> 1 <= base_weight o.
Proof.
  destruct o; cbn [is_loop base_weight]; intros H; try discriminate; try apply sat_add128_pos; lia.
Qed.

Lemma weightZ_upto_loop it len rest k :
  weightZ_upto (Loop it len :: rest) (S k)
  = weightZ_upto rest (Nat.min (N.to_nat len) k) * it + 1 + weightZ_upto rest k.
Proof. reflexivity. Qed.

Lemma weight_abs_upto : forall ops k,
  N.of_nat (LA.weight (firstn k (map aop_of ops))) = weightZ_upto ops k.
Proof.
  induction ops as [|o rest IH]; intros k.
  - rewrite firstn_nil. destruct k; reflexivity.
  - destruct k as [|k]; [reflexivity|].
    cbn [map firstn].
    destruct (is_loop o) eqn:L.
    + destruct o; try discriminate. cbn [aop_of].
      rewrite LA.weight_loop, weightZ_upto_loop, firstn_firstn.
      rewrite !Nat2N.inj_add, Nat2N.inj_mul, !IH, N2Nat.id. change (N.of_nat 1) with 1. lia.
    + destruct (plain_op o L) as (-> & -> & _). rewrite LA.weight_plain.
      rewrite Nat2N.inj_add, IH, N2Nat.id. reflexivity.
Qed.

Lemma weight_abs prog : N.of_nat (LA.weight (aprog prog)) = weightZ prog.
Proof.
  unfold weightZ, aprog. rewrite <- weight_abs_upto.
  rewrite <- (map_length aop_of prog), firstn_all. reflexivity.
Qed.

Lemma weight_upto_sat : forall ops k, weight_upto ops k = N.min (weightZ_upto ops k) MAX128.
Proof.
  induction ops as [|o rest IH]; intros k.
  - destruct k; reflexivity.
  - destruct k as [|k]; [reflexivity|].
    destruct (is_loop o) eqn:L.
    + destruct o; try discriminate. rewrite weightZ_upto_loop. cbn [weight_upto].
      rewrite !IH. unfold sat_add128, sat_mul128. rewrite min_mul_absorb.
      generalize MAX128, (weightZ_upto rest (Nat.min (N.to_nat len) k) * iters). lia.
    + destruct (plain_op o L) as (_ & -> & ->). rewrite IH.
      unfold sat_add128. generalize MAX128. lia.
Qed.

Theorem weight_is_saturated prog : weight prog = N.min (weightZ prog) MAX128.
Proof. apply weight_upto_sat. Qed.

Lemma update_abs : forall st p,
  LA.update (N.to_nat p) (map aframe st)
  = (N.to_nat (fst (update p st)), map aframe (snd (update p st))).
Proof.
  induction st as [|f rest IH]; intros p; [reflexivity|].
  cbn [map update LA.update]. cbn [aframe LA.fe LA.fit LA.fb].
  (* the tests of the two machines agree *)
  replace (N.to_nat p <=? N.to_nat (f_end f))%nat with (negb (f_end f <? p)) by lia.
  destruct (f_end f <? p) eqn:E1; cbn [negb]; [|reflexivity].
  replace ((0 <? N.to_nat (f_left f))%nat && (N.to_nat p =? N.to_nat (f_end f) + 1)%nat)
    with ((0 <? f_left f) && (p - f_end f =? 1)) by lia.
  destruct ((0 <? f_left f) && (p - f_end f =? 1)) eqn:E2; [|apply IH].
  cbn [fst snd map]. rewrite aframe_mk. do 3 f_equal. lia.
Qed.

Lemma exec_plain O o s s' :
  is_loop o = false -> exec_op O o s = Some s' ->
  loops s' = loops s /\ exists j, pc s' = pc s + 1 + j.
Proof.
  intros L H. destruct (is_simple o) eqn:S.
  - rewrite (simple_exec O o s S) in H. destruct (data_step O o _); [|discriminate]. injection H as <-.
    split; [reflexivity|]. exists 0. cbn [pc]. lia.
  - (* Bez, Bnz, Jmp *) destruct o; try discriminate; cbn [exec_op] in H.
    1, 2: destruct (stack s) as [|top r]; [discriminate|].
    all: injection H as <-; split; [reflexivity|]; cbn [pc].
    1, 2: destruct (match top with VInt 0 => true | _ => false end).
    all: first [exists 0; lia|eexists; reflexivity].
Qed.

Lemma exec_loop0 O len s s' :
  exec_op O (Loop 0 len) s = Some s' -> loops s' = loops s /\ pc s' = pc s + 1 + len.
Proof. cbn. intros H. injection H as <-. cbn. auto. Qed.

Lemma exec_loop O it len s s' :
  0 < it -> exec_op O (Loop it len) s = Some s' ->
  pc s' = pc s + 1 /\
  loops s' = {| f_begin := pc s + 1; f_end := pc s + 1 + len - 1; f_left := it - 1 |} :: loops s /\
  match loops s with [] => True | g :: _ => pc s + 1 + len - 1 <= f_end g end.
Proof.
  intros Hit. unfold exec_op.
  destruct (N.ltb_spec 0 it) as [_|?]; [|lia].
  destruct (loops s) as [|g rest] eqn:E.
  - intros H. injection H as <-. cbn. auto.
  - destruct (N.ltb_spec (f_end g) (pc s + 1 + len - 1)) as [?|Hle]; cbn [negb]; [discriminate|].
    intros H. injection H as <-. cbn. auto.
Qed.

Lemma step_sim O prog s s' :
  step O prog s = Some s' -> LA.astep (aprog prog) (abs s) (abs s').
Proof.
  unfold step. destruct (nth_error prog (N.to_nat (pc s))) as [o|] eqn:Hn; [|discriminate].
  destruct (exec_op O o s) as [s1|] eqn:Hx; [|discriminate].
  destruct (update (pc s1) (loops s1)) as [p l] eqn:Hu. intros H. injection H as <-.
  assert (Hn' : nth_error (aprog prog) (N.to_nat (pc s)) = Some (aop_of o))
    by (unfold aprog; apply map_nth_error; exact Hn).
  pose proof (update_abs (loops s1) (pc s1)) as UA. rewrite Hu in UA. cbn [fst snd] in UA.
  unfold abs. cbn [pc loops]. rewrite <- UA.
  destruct (is_loop o) eqn:L.
  - destruct o; try discriminate L. cbn [aop_of] in Hn'.
    destruct (N.eqb_spec iters 0) as [->|Hne].
    + apply exec_loop0 in Hx as [Hl Hp]. rewrite Hl, Hp.
      rewrite !N2Nat.inj_add. apply LA.st_loop0. exact Hn'.
    + apply exec_loop in Hx as (Hp & Hl & Hnest); [|lia]. rewrite Hl, Hp. cbn [map]. rewrite aframe_mk.
      replace (N.to_nat iters) with (S (N.to_nat (iters - 1))) in Hn' by lia.
      replace (N.to_nat (pc s + 1)) with (N.to_nat (pc s) + 1)%nat by lia.
      replace (N.to_nat (pc s + 1 + len - 1)) with (N.to_nat (pc s) + N.to_nat len)%nat by lia.
      apply LA.st_loop; [exact Hn'|].
      destruct (loops s) as [|g rest]; [exact I|]. cbn [map aframe LA.fe]. lia.
  - rewrite (proj1 (plain_op o L)) in Hn'.
    apply (exec_plain O o s s1 L) in Hx as [Hl [j Hp]]. rewrite Hl, Hp.
    rewrite !N2Nat.inj_add. eapply LA.st_plain. exact Hn'.
Qed.

Lemma aprog_weight_pos prog : forall c, In (LA.Plain c) (aprog prog) -> (1 <= c)%nat.
Proof.
  intros c Hin. unfold aprog in Hin. apply in_map_iff in Hin as (o & E & _).
  destruct (is_loop o) eqn:L.
  - destruct o; try discriminate L. discriminate E.
  - rewrite (proj1 (plain_op o L)) in E. injection E as <-. pose proof (base_weight_pos o L). lia.
Qed.

Section Run.
Variable O : oracle.
Variable prog : list op.
Variable h : list (N * value).

Let init_abs : nat * list LA.frame := (0%nat, []).

Lemma abs_init : abs (init_state h) = init_abs.
Proof. reflexivity. Qed.

Lemma reach_le_weight n0 s : LA.asteps (aprog prog) (N.to_nat n0) init_abs (abs s) ->
  n0 <= weightZ prog /\ (pc s < len prog -> n0 + 1 <= weightZ prog).
Proof.
  intros Hr. rewrite <- weight_abs. split.
  - pose proof (LA.steps_le_weight _ (aprog_weight_pos prog) _ _ Hr). lia.
  - intros Hpc. pose proof (LA.steps_plus_one_le_weight _ (aprog_weight_pos prog) _ _ Hr) as B.
    cbn [abs fst] in B. unfold aprog in B at 1. rewrite map_length in B. unfold len in Hpc. lia.
Qed.

Lemma run_nat_inv : forall k s n0,
  LA.asteps (aprog prog) (N.to_nat n0) init_abs (abs s) ->
  match run_nat O prog k s n0 with
  | Cont s' n' => n' = n0 + N.of_nat k /\ LA.asteps (aprog prog) (N.to_nat n') init_abs (abs s')
  | Fin _ n' => n' <= weightZ prog
  end.
Proof.
  induction k as [|k IH]; intros s n0 Hreach.
  - cbn [run_nat]. split; [lia|exact Hreach].
  - cbn [run_nat]. unfold step1.
    destruct (N.ltb_spec (pc s) (len prog)) as [Hpc|Hpc].
    + destruct (step O prog s) as [s'|] eqn:Hs.
      * apply step_sim in Hs.
        assert (Hreach' : LA.asteps (aprog prog) (N.to_nat (n0 + 1)) init_abs (abs s')).
        { replace (N.to_nat (n0 + 1)) with (S (N.to_nat n0)) by lia. eapply LA.asteps_snoc; eauto. }
        specialize (IH s' (n0 + 1) Hreach').
        destruct (run_nat O prog k s' (n0 + 1)) as [s2 n2|r n2].
        -- destruct IH as [-> Hr]. split; [lia|exact Hr].
        -- exact IH.
      * apply (reach_le_weight n0 s Hreach), Hpc.
    + apply (reach_le_weight n0 s Hreach).
Qed.

Lemma run_pos_nat : forall p s n, run_pos O prog p s n = run_nat O prog (Pos.to_nat p) s n.
Proof.
  induction p as [p IH|p IH|]; intros s n.
  - cbn [run_pos]. rewrite Pos2Nat.inj_xI. cbn [run_nat].
    destruct (step1 O prog s n) as [s1 n1|r n1]; [|reflexivity].
    replace (2 * Pos.to_nat p)%nat with (Pos.to_nat p + Pos.to_nat p)%nat by lia.
    rewrite run_nat_add, <- IH. destruct (run_pos O prog p s1 n1); [apply IH|reflexivity].
  - cbn [run_pos]. rewrite Pos2Nat.inj_xO.
    replace (2 * Pos.to_nat p)%nat with (Pos.to_nat p + Pos.to_nat p)%nat by lia.
    rewrite run_nat_add, <- IH. destruct (run_pos O prog p s n); [apply IH|reflexivity].
  - cbn [run_pos]. change (Pos.to_nat 1) with 1%nat. cbn [run_nat].
    destruct (step1 O prog s n); reflexivity.
Qed.

(* every finite prefix of an execution is at most weightZ prog instructions long *)
Theorem steps_le_weight k s n :
  run_nat O prog k (init_state h) 0 = Cont s n -> n = N.of_nat k /\ n <= weightZ prog.
Proof.
  intros H. pose proof (run_nat_inv k (init_state h) 0) as I.
  rewrite H in I. destruct I as [-> Hr]; [constructor|]. split; [lia|]. apply (reach_le_weight _ s Hr).
Qed.

Theorem run_never_out_of_fuel : run O prog h <> OutOfFuel.
Proof.
  unfold run. rewrite run_pos_nat.
  destruct (run_nat O prog (Pos.to_nat (run_fuel prog)) (init_state h) 0) as [s n|r n] eqn:E; [|discriminate].
  exfalso. apply steps_le_weight in E as [-> Hle].
  unfold run_fuel in Hle. rewrite positive_nat_N, N.succ_pos_spec in Hle. lia.
Qed.

(* the executed instruction count (including a final failing instruction) is within the weight *)
Theorem run_steps_le_weight r n : run O prog h = Finished r n -> n <= weightZ prog.
Proof.
  unfold run. rewrite run_pos_nat. intros H.
  pose proof (run_nat_inv (Pos.to_nat (run_fuel prog)) (init_state h) 0) as I.
  destruct (run_nat O prog (Pos.to_nat (run_fuel prog)) (init_state h) 0) as [s m|r' m]; [discriminate|].
  injection H as _ <-. apply I. constructor.
Qed.

(* and when the charged (saturating u128) weight has not saturated it is the same bound *)
Corollary run_steps_le_charged_weight r n :
  weightZ prog <= MAX128 -> run O prog h = Finished r n -> n <= weight prog.
Proof.
  intros Hs H. rewrite weight_is_saturated. apply run_steps_le_weight in H. lia.
Qed.

End Run.
