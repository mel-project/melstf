(* C11 core: executed steps <= weight, on the control-flow abstraction of the MelVM executor
   (step + update_pc_state) and of opcodes_weight / opcodes_car_weight.
   VM/LoopProofs.v shows that the concrete interpreter of VM/Exec.v refines this machine. *)
From Coq Require Import List Arith Lia Bool.
Import ListNotations.

Inductive aop :=
| Plain (c : nat)            (* any non-Loop opcode; c = its weight; may jump forward arbitrarily or fail *)
| ALoop (it len : nat).

(* weight, as in opcode.rs: Loop weighs 1 + it * weight(body) and does not consume its body *)
Fixpoint weight_f (fuel : nat) (ops : list aop) : nat :=
  match fuel with
  | 0 => 0
  | S f =>
    match ops with
    | [] => 0
    | Plain c :: rest => c + weight_f f rest
    | ALoop it len :: rest => 1 + it * weight_f f (firstn len rest) + weight_f f rest
    end
  end.
Definition weight (ops : list aop) := weight_f (length ops) ops.

Lemma weight_f_irrel : forall f1 f2 ops,
  length ops <= f1 -> length ops <= f2 -> weight_f f1 ops = weight_f f2 ops.
Proof.
  induction f1 as [|f1 IH]; intros f2 ops H1 H2.
  - destruct ops; simpl in *; [|lia]. destruct f2; reflexivity.
  - destruct ops as [|o rest]; [destruct f2; reflexivity|].
    destruct f2 as [|f2]; [simpl in H2; lia|]. simpl in H1, H2.
    cbn [weight_f]. destruct o as [c|it len].
    + rewrite (IH f2 rest) by lia. reflexivity.
    + rewrite (IH f2 rest) by lia.
      rewrite (IH f2 (firstn len rest)) by (rewrite firstn_length; lia). reflexivity.
Qed.

Lemma weight_nil : weight [] = 0. Proof. reflexivity. Qed.
Lemma weight_plain c rest : weight (Plain c :: rest) = c + weight rest.
Proof. unfold weight. cbn [length weight_f]. reflexivity. Qed.
Lemma weight_loop it len rest :
  weight (ALoop it len :: rest) = 1 + it * weight (firstn len rest) + weight rest.
Proof.
  unfold weight. cbn [length weight_f].
  rewrite (weight_f_irrel (length rest) (length (firstn len rest)) (firstn len rest))
    by (rewrite ?firstn_length; lia).
  reflexivity.
Qed.

(* what one machine step at an instruction is charged *)
Definition cw (o : aop) : nat := match o with Plain c => c | ALoop _ _ => 1 end.

Lemma weight_cons_ge o rest : cw o + weight rest <= weight (o :: rest).
Proof. destruct o; [rewrite weight_plain|rewrite weight_loop]; cbn [cw]; lia. Qed.

Lemma skipn_nth_cons {A} : forall (l : list A) x o, nth_error l x = Some o -> skipn x l = o :: skipn (S x) l.
Proof.
  induction l as [|a l IH]; intros x o H; destruct x; cbn in *; try discriminate.
  - injection H as ->. reflexivity.
  - apply IH. exact H.
Qed.

Section Prog.
Variable prog : list aop.
Let n := length prog.

Definition slice (x h : nat) : list aop := firstn (h - x) (skipn x prog).
Definition W (x h : nat) : nat := weight (slice x h).

Lemma slice_empty x h : h <= x -> slice x h = [].
Proof. intros. unfold slice. replace (h - x) with 0 by lia. reflexivity. Qed.

Lemma W_empty x h : h <= x -> W x h = 0.
Proof. intros. unfold W. rewrite slice_empty by assumption. reflexivity. Qed.

Lemma slice_cons x h o : x < h -> nth_error prog x = Some o ->
  slice x h = o :: slice (S x) h.
Proof.
  intros Hlt Hn. unfold slice. rewrite (skipn_nth_cons prog x o Hn).
  replace (h - x) with (S (h - S x)) by lia. reflexivity.
Qed.

Lemma firstn_slice len x h : firstn len (slice x h) = slice x (Nat.min (x + len) h).
Proof.
  unfold slice. rewrite firstn_firstn. f_equal. lia.
Qed.

Lemma W_cons x h o : x < h -> nth_error prog x = Some o -> W (S x) h + cw o <= W x h.
Proof.
  intros Hlt Hn. unfold W. rewrite (slice_cons x h o Hlt Hn).
  pose proof (weight_cons_ge o (slice (S x) h)). lia.
Qed.

Lemma W_step_le x h : W (S x) h <= W x h.
Proof.
  destruct (Nat.le_gt_cases h x) as [Hle|Hlt]; [rewrite !W_empty by lia; lia|].
  destruct (nth_error prog x) as [o|] eqn:E.
  - pose proof (W_cons x h o Hlt E). lia.
  - apply nth_error_None in E. unfold W, slice.
    rewrite !skipn_all2 by lia. rewrite !firstn_nil. lia.
Qed.

Lemma W_antitone x x' h : x <= x' -> W x' h <= W x h.
Proof.
  induction 1 as [|x' Hle IH]; [lia|]. etransitivity; [apply W_step_le|exact IH].
Qed.

Record frame := { fb : nat; fe : nat; fit : nat }.

Fixpoint update (pc : nat) (st : list frame) : nat * list frame :=
  match st with
  | [] => (pc, [])
  | f :: rest =>
    if pc <=? fe f then (pc, st)
    else if (0 <? fit f) && (pc =? fe f + 1)
         then (fb f, {| fb := fb f; fe := fe f; fit := fit f - 1 |} :: rest)
         else update pc rest
  end.

(* the first position behind a frame's body, clipped to the program *)
Definition hh (f : frame) := Nat.min (fe f + 1) n.

(* the potential: the weight of what can still run.  Per open frame, innermost first: the rest of the current pass
   of its body, and [fit] further passes; an outer frame (at the bottom, the program) counts from where the inner
   one ends (Nat.max), so nothing is counted twice.  A step releases the charge of its instruction (Phi_step);
   entering Loop (S it) trades its weight 1 + (S it) * body for the step, the current pass and [it] further ones
   (step_decreases); update never raises Phi (update_ok). *)
Fixpoint Phi (pc : nat) (st : list frame) : nat :=
  match st with
  | [] => W pc n
  | f :: rest => W pc (hh f) + fit f * W (fb f) (hh f) + Phi (Nat.max pc (hh f)) rest
  end.

Fixpoint StackOk (st : list frame) : Prop :=
  match st with
  | [] => True
  | f :: rest => fb f <= fe f + 1 /\ fb f <= n /\
                 match rest with [] => True | g :: _ => fe f <= fe g end /\ StackOk rest
  end.

Lemma Phi_antitone : forall st pc pc', pc <= pc' -> Phi pc' st <= Phi pc st.
Proof.
  induction st as [|f rest IH]; intros pc pc' Hle; cbn [Phi].
  - apply W_antitone; assumption.
  - pose proof (W_antitone pc pc' (hh f) Hle).
    pose proof (IH (Nat.max pc (hh f)) (Nat.max pc' (hh f)) ltac:(lia)). lia.
Qed.

Lemma Phi_const_beyond : forall st x y, n <= x -> n <= y -> Phi x st = Phi y st.
Proof.
  induction st as [|f rest IH]; intros x y Hx Hy; cbn [Phi].
  - rewrite !W_empty by lia. reflexivity.
  - assert (hh f <= n) by (unfold hh; lia).
    rewrite (W_empty x) by lia. rewrite (W_empty y) by lia.
    rewrite (IH (Nat.max x (hh f)) (Nat.max y (hh f))) by lia. reflexivity.
Qed.

Lemma Phi_hh st f : Phi (hh f) st = Phi (fe f + 1) st.
Proof.
  unfold hh. destruct (Nat.le_gt_cases (fe f + 1) n); [rewrite Nat.min_l by assumption; reflexivity|].
  apply Phi_const_beyond; lia.
Qed.

Lemma update_ok : forall st pc, StackOk st ->
  StackOk (snd (update pc st)) /\ Phi (fst (update pc st)) (snd (update pc st)) <= Phi pc st.
Proof.
  induction st as [|f rest IH]; intros pc Hok; cbn [update].
  - cbn. auto.
  - destruct (pc <=? fe f) eqn:E1; [cbn [fst snd]; auto|].
    destruct Hok as (Hb & Hbn & Hsorted & Hrest).
    apply Nat.leb_gt in E1.
    destruct ((0 <? fit f) && (pc =? fe f + 1)) eqn:E2.
    + split; [cbn; auto|].
      apply andb_prop in E2. destruct E2 as [Hit Hpc].
      apply Nat.ltb_lt in Hit. apply Nat.eqb_eq in Hpc.
      cbn [fst snd Phi fb fe fit]. change (hh {| fb := fb f; fe := fe f; fit := fit f - 1 |}) with (hh f).
      rewrite (W_empty pc (hh f)) by (unfold hh; lia).
      replace (Nat.max (fb f) (hh f)) with (hh f) by (unfold hh; lia).
      replace (Nat.max pc (hh f)) with (fe f + 1) by (unfold hh; lia).
      rewrite Phi_hh.
      destruct (fit f) as [|k]; [lia|]. cbn [Nat.sub]. rewrite Nat.sub_0_r.
      lia.
    + destruct (IH pc Hrest) as [Hok' Hle]. split; [exact Hok'|].
      etransitivity; [exact Hle|].
      cbn [Phi].
      assert (hh f <= pc) by (unfold hh; lia).
      rewrite Nat.max_l by lia. lia.
Qed.

(* one machine step (control flow only).  Post-update states between steps. *)
Inductive astep : nat * list frame -> nat * list frame -> Prop :=
| st_plain pc st c j :
    nth_error prog pc = Some (Plain c) ->
    astep (pc, st) (update (pc + 1 + j) st)
| st_loop0 pc st len :
    nth_error prog pc = Some (ALoop 0 len) ->
    astep (pc, st) (update (pc + 1 + len) st)
| st_loop pc st it len :
    nth_error prog pc = Some (ALoop (S it) len) ->
    match st with [] => True | g :: _ => pc + len <= fe g end ->
    astep (pc, st) (update (pc + 1) ({| fb := pc + 1; fe := pc + len; fit := it |} :: st)).

Hypothesis weight_pos : forall c, In (Plain c) prog -> 1 <= c.

Lemma cw_pos o : In o prog -> 1 <= cw o.
Proof. destruct o as [c|it len]; [apply weight_pos|reflexivity]. Qed.

Lemma Phi_step : forall st pc o, nth_error prog pc = Some o -> Phi (S pc) st + cw o <= Phi pc st.
Proof.
  induction st as [|f rest IH]; intros pc o Hn; cbn [Phi].
  - apply W_cons; [apply nth_error_Some; congruence|exact Hn].
  - destruct (Nat.le_gt_cases (hh f) pc) as [Hge|Hlt].
    + rewrite !W_empty by lia.
      rewrite !Nat.max_l by lia.
      specialize (IH pc o Hn). lia.
    + pose proof (W_cons pc (hh f) o Hlt Hn).
      rewrite !Nat.max_r by lia. lia.
Qed.

Lemma Phi_ge_one st pc : pc < n -> 1 <= Phi pc st.
Proof.
  intros Hpc. destruct (nth_error prog pc) as [o|] eqn:E; [|apply nth_error_None in E; unfold n in Hpc; lia].
  pose proof (Phi_step st pc o E). pose proof (cw_pos o (nth_error_In _ _ E)). lia.
Qed.

Lemma jump_decreases st pc o j : StackOk st -> nth_error prog pc = Some o ->
  StackOk (snd (update (pc + 1 + j) st)) /\
  Phi (fst (update (pc + 1 + j) st)) (snd (update (pc + 1 + j) st)) + cw o <= Phi pc st.
Proof.
  intros Hok Hn. destruct (update_ok st (pc + 1 + j) Hok) as [Hok' HB]. split; [exact Hok'|].
  pose proof (Phi_step st pc o Hn).
  pose proof (Phi_antitone st (S pc) (pc + 1 + j) ltac:(lia)). lia.
Qed.

Theorem step_decreases : forall s s',
  StackOk (snd s) -> astep s s' ->
  StackOk (snd s') /\ Phi (fst s') (snd s') + 1 <= Phi (fst s) (snd s).
Proof.
  intros s s' Hok Hstep.
  destruct Hstep as [pc st c j Hn | pc st len Hn | pc st it len Hn Hnest]; cbn [fst snd] in *.
  - destruct (jump_decreases st pc _ j Hok Hn) as [Hok' HB]. split; [exact Hok'|].
    pose proof (cw_pos _ (nth_error_In _ _ Hn)). lia.
  - (* loop with zero iterations: a jump *)
    exact (jump_decreases st pc _ len Hok Hn).
  - assert (Hpc : pc < n) by (apply nth_error_Some; congruence).
    set (fr := {| fb := pc + 1; fe := pc + len; fit := it |}) in *.
    assert (Hok2 : StackOk (fr :: st)).
    { cbn. repeat split; try lia. destruct st; [exact I|]. exact Hnest. exact Hok. }
    destruct (update_ok (fr :: st) (pc + 1) Hok2) as [Hok' HB]. split; [exact Hok'|].
    enough (Phi (pc + 1) (fr :: st) + 1 <= Phi pc st) by lia.
    cbn [Phi]. change (fb fr) with (pc + 1). change (fit fr) with it.
    assert (Hh : hh fr = Nat.min (pc + 1 + len) n) by (unfold hh, fr; cbn; f_equal; lia).
    rewrite Nat.max_r by lia.
    (* up to any bound h that encloses the new frame, the Loop instruction weighs one more than
       S it runs of its body and the instructions behind the body *)
    assert (Key : forall h, pc < h -> hh fr = Nat.min (pc + 1 + len) h ->
              W (pc + 1) (hh fr) + it * W (pc + 1) (hh fr) + W (hh fr) h + 1 <= W pc h).
    { intros h Hlt Eh. unfold W at 4. rewrite (slice_cons pc h _ Hlt Hn), weight_loop, firstn_slice.
      fold (W (S pc) h). replace (S pc) with (pc + 1) by lia. rewrite <- Eh. fold (W (pc + 1) (hh fr)).
      pose proof (W_antitone (pc + 1) (hh fr) h ltac:(lia)). lia. }
    destruct st as [|g rest]; cbn [Phi].
    + specialize (Key n Hpc Hh). lia.
    + specialize (Key (hh g) ltac:(unfold hh; lia) ltac:(unfold hh in *; lia)).
      rewrite !Nat.max_r by (unfold hh in *; lia). lia.
Qed.

Inductive asteps : nat -> nat * list frame -> nat * list frame -> Prop :=
| as_nil s : asteps 0 s s
| as_cons k s1 s2 s3 : astep s1 s2 -> asteps k s2 s3 -> asteps (S k) s1 s3.

Lemma asteps_snoc k a b c : asteps k a b -> astep b c -> asteps (S k) a c.
Proof.
  induction 1 as [s|k s1 s2 s3 Hs Hrest IH]; intros Hc.
  - econstructor; [exact Hc|constructor].
  - econstructor; [exact Hs|apply IH; exact Hc].
Qed.

Lemma asteps_Phi k s1 s2 : asteps k s1 s2 -> StackOk (snd s1) ->
  k + Phi (fst s2) (snd s2) <= Phi (fst s1) (snd s1).
Proof.
  induction 1 as [s|k s1 s2 s3 Hs Hrest IH]; intros Hok; [lia|].
  destruct (step_decreases s1 s2 Hok Hs) as [Hok2 Hdec].
  specialize (IH Hok2). lia.
Qed.

Lemma Phi_init : Phi 0 [] = weight prog.
Proof. cbn [Phi]. unfold W, slice, n. rewrite Nat.sub_0_r. cbn [skipn]. rewrite firstn_all. reflexivity. Qed.

Theorem steps_le_weight : forall k s, asteps k (0, []) s -> k <= weight prog.
Proof. intros k s H. pose proof (asteps_Phi k _ s H I) as G. cbn [fst snd] in G. rewrite Phi_init in G. lia. Qed.

Theorem steps_plus_one_le_weight : forall k s, asteps k (0, []) s -> fst s < n -> k + 1 <= weight prog.
Proof.
  intros k s H Hpc. pose proof (asteps_Phi k _ s H I) as G. cbn [fst snd] in G. rewrite Phi_init in G.
  pose proof (Phi_ge_one (snd s) (fst s) Hpc). lia.
Qed.

End Prog.

